(* C06 — storage-header resync skips exactly the bytes before the first pattern 'DLT\x01'. *)
From DltV.Model Require Import Bytes Nom Dlt Parse.
From DltV.Proofs Require Import Search Resync.
Open Scope N_scope.

(* [pattern_at bs k]: the four bytes 'D','L','T',0x01 stand at offset k of bs
   (Definition pattern_at bs k := exists r, skipn k bs = pat_DLT1 ++ r). *)

(* ---------- the search ---------- *)
Theorem c06_search : forall bs,
  match forward_to_next_storage_header bs with
  | Some (k, r) => r = skipn (N.to_nat k) bs /\ pattern_at bs (N.to_nat k)
                   /\ forall j, (j < N.to_nat k)%nat -> ~ pattern_at bs j
  | None => forall j, ~ pattern_at bs j
  end.
Proof. exact forward_spec. Qed.
Check c06_search : forall bs,
  match forward_to_next_storage_header bs with
  | Some (k, r) => r = skipn (N.to_nat k) bs /\ pattern_at bs (N.to_nat k)
                   /\ forall j, (j < N.to_nat k)%nat -> ~ pattern_at bs j
  | None => forall j, ~ pattern_at bs j
  end.
Print Assumptions c06_search.

(* converse: if the pattern occurs anywhere, the search succeeds (at or before that occurrence) *)
Theorem c06_search_complete : forall bs j,
  pattern_at bs j ->
  exists k r, forward_to_next_storage_header bs = Some (k, r) /\ (N.to_nat k <= j)%nat.
Proof.
  intros bs j Hp. pose proof (forward_spec bs) as S.
  destruct (forward_to_next_storage_header bs) as [[k r]|]; [|now apply S in Hp].
  exists k, r. split; [reflexivity|]. destruct S as (_ & _ & Hmin).
  destruct (Nat.le_gt_cases (N.to_nat k) j) as [|Hlt]; [assumption | now apply Hmin in Hlt].
Qed.
Check c06_search_complete : forall bs j,
  pattern_at bs j ->
  exists k r, forward_to_next_storage_header bs = Some (k, r) /\ (N.to_nat k <= j)%nat.
Print Assumptions c06_search_complete.

(* both as equivalences: the result is characterised completely *)
Theorem c06_search_some_iff : forall bs k r,
  forward_to_next_storage_header bs = Some (k, r) <->
  r = skipn (N.to_nat k) bs /\ pattern_at bs (N.to_nat k) /\
  forall j, (j < N.to_nat k)%nat -> ~ pattern_at bs j.
Proof.
  intros bs k r.
  split.
  - intros H. pose proof (forward_spec bs) as S. rewrite H in S. exact S.
  - intros (-> & Hp & Hmin). unfold forward_to_next_storage_header.
    rewrite (proj2 (find_pattern_some bs (N.to_nat k)) (conj Hp Hmin)). now rewrite N2Nat.id.
Qed.
Check c06_search_some_iff : forall bs k r,
  forward_to_next_storage_header bs = Some (k, r) <->
  r = skipn (N.to_nat k) bs /\ pattern_at bs (N.to_nat k) /\
  forall j, (j < N.to_nat k)%nat -> ~ pattern_at bs j.
Print Assumptions c06_search_some_iff.

Theorem c06_search_none_iff : forall bs,
  forward_to_next_storage_header bs = None <-> forall j, ~ pattern_at bs j.
Proof. exact forward_none_iff. Qed.
Check c06_search_none_iff : forall bs,
  forward_to_next_storage_header bs = None <-> forall j, ~ pattern_at bs j.
Print Assumptions c06_search_none_iff.

(* ---------- junk in front of a storage header is skipped ----------
   x is anything that starts with the pattern and has at least the 16 bytes of a storage header
   (e.g. message_bytes m ++ rest for a message with storage header).  The junk may end in a partial
   pattern ('D', 'DL', 'DLT'): the pattern is unbordered, so no occurrence straddles the boundary.
   The WHOLE result is equal: message, remainder, and every error/incomplete outcome. *)
Theorem c06_junk : forall junk x f,
  (forall j, ~ pattern_at junk j) -> (exists r, x = pat_DLT1 ++ r) -> 16 <= len x ->
  dlt_message (junk ++ x) f true = dlt_message x f true.
Proof. exact junk_skipped. Qed.
Check c06_junk : forall junk x f,
  (forall j, ~ pattern_at junk j) -> (exists r, x = pat_DLT1 ++ r) -> 16 <= len x ->
  dlt_message (junk ++ x) f true = dlt_message x f true.
Print Assumptions c06_junk.

(* pattern-free leftover (the junk behind the last message): no storage header is found, the
   standard-header parser sees an empty input and asks for more *)
Theorem c06_trailing_junk : forall junk f,
  (forall j, ~ pattern_at junk j) ->
  dlt_message junk f true = if len junk <? 16 then PIncomplete None else PIncomplete (Some 1).
Proof. exact junk_only. Qed.
Check c06_trailing_junk : forall junk f,
  (forall j, ~ pattern_at junk j) ->
  dlt_message junk f true = if len junk <? 16 then PIncomplete None else PIncomplete (Some 1).
Print Assumptions c06_trailing_junk.

(* ---------- a stream of messages with junk between them is recovered completely and in order ----------
   A piece is (junk, x, pm): pattern-free junk, bytes x that start with the pattern and parse to pm
   with exactly the continuation left, whatever follows (what C01 gives for x = message_bytes m).
   stream_bytes [(j1,x1,_); ...; (jn,xn,_)] tail = j1 ++ x1 ++ ... ++ jn ++ xn ++ tail. *)
Theorem c06_stream : forall f l jn fuel,
  Forall (good_piece f) l -> (forall k, ~ pattern_at jn k) -> (length l < fuel)%nat ->
  parse_all fuel (stream_bytes l jn) f true = (map snd l, jn).
Proof. exact stream_recovered. Qed.
Check c06_stream : forall f l jn fuel,
  Forall (good_piece f) l -> (forall k, ~ pattern_at jn k) -> (length l < fuel)%nat ->
  parse_all fuel (stream_bytes l jn) f true = (map snd l, jn).
Print Assumptions c06_stream.

(* the same for serialised messages; the third conjunct of the hypothesis is the conclusion of the
   round trip C01 (res m = Item m for f = None; with C09, res m = the marker or Item m) *)
Theorem c06_stream_messages : forall f (res : message -> parsed_message) l jn fuel,
  (forall j m, In (j, m) l ->
     (forall k, ~ pattern_at j k) /\ m_storage m <> None /\
     (forall tail, dlt_message (message_bytes m ++ tail) f true = POk (res m) tail)) ->
  (forall k, ~ pattern_at jn k) -> (length l < fuel)%nat ->
  parse_all fuel (messages_bytes l jn) f true = (map (fun p => res (snd p)) l, jn).
Proof. exact messages_recovered. Qed.
Check c06_stream_messages : forall f (res : message -> parsed_message) l jn fuel,
  (forall j m, In (j, m) l ->
     (forall k, ~ pattern_at j k) /\ m_storage m <> None /\
     (forall tail, dlt_message (message_bytes m ++ tail) f true = POk (res m) tail)) ->
  (forall k, ~ pattern_at jn k) -> (length l < fuel)%nat ->
  parse_all fuel (messages_bytes l jn) f true = (map (fun p => res (snd p)) l, jn).
Print Assumptions c06_stream_messages.

(* ---------- non-vacuity ---------- *)
(* search: junk 'DLT' (a partial pattern) in front of the pattern; absence *)
Example c06_ex_search :
  forward_to_next_storage_header [x44; x4c; x54; x44; x4c; x54; x01; xff] = Some (3, [x44; x4c; x54; x01; xff])
  /\ forward_to_next_storage_header [x44; x4c; x54; x00; x01] = None
  /\ pattern_at [x44; x4c; x54; x44; x4c; x54; x01; xff] 3.
Proof. split; [reflexivity|]. split; [reflexivity|]. now exists [xff]. Qed.

(* Resync.ex_bytes = message_bytes ex_msg: storage header + standard header + non-verbose payload, 24 bytes *)
Example c06_ex_piece :
  ex_bytes = message_bytes ex_msg /\ forall tail, dlt_message (ex_bytes ++ tail) None true = POk (Item ex_msg) tail.
Proof. split; [exact ex_bytes_eq | exact ex_parses]. Qed.

(* hypotheses of c06_junk: junk ending in the partial pattern 'DLT' *)
Example c06_ex_junk :
  let junk := [xff; x44; x4c; x54] in
  (forall j, ~ pattern_at junk j) /\ (exists r, ex_bytes ++ [xee] = pat_DLT1 ++ r) /\ 16 <= len (ex_bytes ++ [xee])
  /\ dlt_message (junk ++ ex_bytes ++ [xee]) None true = POk (Item ex_msg) [xee].
Proof.
  split; [apply no_pattern; reflexivity|]. split; [eexists; reflexivity|]. split; [vm_compute; discriminate|].
  vm_compute. reflexivity.
Qed.

(* 16 <= len x is needed: the length check of dlt_storage_header is on the whole input, so 12 junk bytes
   in front of a bare pattern pass it and the hint differs *)
Example c06_ex_len_needed :
  dlt_message (repeat x00 12 ++ pat_DLT1) None true = PIncomplete (Some 4)
  /\ dlt_message pat_DLT1 None true = PIncomplete None.
Proof. split; vm_compute; reflexivity. Qed.

(* "junk is pattern-free" is needed: a pattern inside the junk is taken for a storage header; here the
   two messages behind it are not delivered (the parser asks for 21723 more bytes) *)
Example c06_ex_pattern_free_needed :
  dlt_message (pat_DLT1 ++ ex_bytes ++ ex_bytes ++ [xee]) None true = PIncomplete (Some 21723).
Proof. vm_compute. reflexivity. Qed.

(* trailing junk *)
Example c06_ex_trailing :
  dlt_message [x44; x4c; x54] None true = PIncomplete None
  /\ dlt_message (repeat x44 20) None true = PIncomplete (Some 1).
Proof. split; vm_compute; reflexivity. Qed.

(* stream: two messages, junk before, between and behind, each junk ending in a partial pattern *)
Example c06_ex_stream :
  let l := [([x00; x44; x4c; x54], ex_bytes, Item ex_msg); ([x44; x4c], ex_bytes, Item ex_msg)] in
  Forall (good_piece None) l /\ (forall k, ~ pattern_at [x44; x4c; x54] k)
  /\ parse_all 3 (stream_bytes l [x44; x4c; x54]) None true = ([Item ex_msg; Item ex_msg], [x44; x4c; x54]).
Proof.
  cbv zeta. split; [|split].
  - apply Forall_cons; [|apply Forall_cons; [|apply Forall_nil]]; apply ex_good_piece, no_pattern; reflexivity.
  - apply no_pattern; reflexivity.
  - vm_compute. reflexivity.
Qed.

Example c06_ex_stream_messages :
  let l := [([x00; x44; x4c; x54], ex_msg); ([x44; x4c], ex_msg)] in
  (forall j m, In (j, m) l ->
     (forall k, ~ pattern_at j k) /\ m_storage m <> None /\
     (forall tail, dlt_message (message_bytes m ++ tail) None true = POk (Item m) tail)).
Proof.
  intros l j m [H|[H|[]]]; injection H as <- <-;
    (split; [apply no_pattern; reflexivity|]; split; [discriminate|]);
    rewrite <- ex_bytes_eq; exact ex_parses.
Qed.
