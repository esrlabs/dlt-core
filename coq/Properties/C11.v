(* C11 — "For every set of FIBEX documents describing frames, PDUs, signals and codings, loading
   them returns a model in which each frame (by its id, and by context id + application id + frame
   id when both are given) carries its short name, message type/info, and its PDUs ordered by
   sequence number, each PDU with its description and its signal types ordered by sequence number
   and mapped from the standard signal names or through signal -> coding -> base data type; element
   order inside the documents and distribution over several files do not matter, the first
   definition of a duplicated frame or PDU id wins, unknown signal references are skipped, and a
   reference to an unknown PDU makes loading fail. Looking up metadata for a message id returns
   that frame via the extended header's ids when one is supplied and via the frame id alone
   otherwise."

   Spec/FibexSpec.v: abstract model [afibex], canonical event rendering, layouts (any permutation
   of the top-level elements, any split over files), and the declarative meaning [denote].
   The loader is the REPAIRED one of Model/Fibex.v; results are compared up to map lookups. *)
From Coq Require Import Sorting.Permutation Sorting.Sorted.
From Coq.Strings Require Import Ascii String.
From DltV.Model Require Import Bytes RustInt Dlt Fibex.
From DltV.Spec Require Import FibexSpec.
From DltV.Proofs Require Import FibexSort FibexLookup FibexDenote FibexLoad FibexOrder.
Open Scope N_scope.

(* ---- loading: any element order, any distribution over files ---- *)
Theorem c11_load : forall (a : afibex) (l : layout),
  is_layout_of a l -> model_ok a = true ->
  exists m d, gather_fibex_data (files_of l) = Some m /\ denote (concat l) = Some d /\ meta_equiv m d.
Proof. exact load_layout. Qed.
Check c11_load : forall (a : afibex) (l : layout),
  is_layout_of a l -> model_ok a = true ->
  exists m d, gather_fibex_data (files_of l) = Some m /\ denote (concat l) = Some d /\ meta_equiv m d.
Print Assumptions c11_load.

(* the same without going through [afibex]: ANY lists of well-formed elements, one list per file;
   the loader returns the meaning of the elements, or refuses exactly when there is none *)
Theorem c11_load_elements : forall (l : layout),
  l <> [] -> elements_ok (concat l) = true ->
  match denote (concat l) with
  | Some d => exists m, gather_fibex_data (files_of l) = Some m /\ meta_equiv m d
  | None => load (files_of l) = Refused /\ gather_fibex_data (files_of l) = None
  end.
Proof. exact load_rendered. Qed.
Check c11_load_elements : forall (l : layout),
  l <> [] -> elements_ok (concat l) = true ->
  match denote (concat l) with
  | Some d => exists m, gather_fibex_data (files_of l) = Some m /\ meta_equiv m d
  | None => load (files_of l) = Refused /\ gather_fibex_data (files_of l) = None
  end.
Print Assumptions c11_load_elements.

(* with unique ids, element order and distribution over files do not matter at all: every layout
   yields the meaning of the model in its canonical order *)
Theorem c11_order_irrelevant : forall (a : afibex) (l : layout),
  is_layout_of a l -> model_ok a = true -> unique_ids (render_elements a) ->
  exists m d, gather_fibex_data (files_of l) = Some m /\ denote (render_elements a) = Some d /\
              meta_equiv m d.
Proof. exact load_layout_canonical. Qed.
Check c11_order_irrelevant : forall (a : afibex) (l : layout),
  is_layout_of a l -> model_ok a = true -> unique_ids (render_elements a) ->
  exists m d, gather_fibex_data (files_of l) = Some m /\ denote (render_elements a) = Some d /\
              meta_equiv m d.
Print Assumptions c11_order_irrelevant.

Theorem c11_denote_order : forall els els',
  Permutation els els' -> unique_ids els ->
  match denote els, denote els' with
  | Some d, Some d' => meta_equiv d d'
  | None, None => True
  | _, _ => False
  end.
Proof. exact denote_perm. Qed.
Check c11_denote_order : forall els els',
  Permutation els els' -> unique_ids els ->
  match denote els, denote els' with
  | Some d, Some d' => meta_equiv d d'
  | None, None => True
  | _, _ => False
  end.
Print Assumptions c11_denote_order.

(* ---- a reference to an unknown PDU makes loading fail ---- *)
Theorem c11_missing_pdu : forall (a : afibex) (l : layout) f i,
  is_layout_of a l -> elements_ok (render_elements a) = true ->
  In f (a_frames a) -> In i (af_pdus f) ->
  (forall p, In p (a_pdus a) -> ap_id p <> snd i) ->
  load (files_of l) = Refused /\ gather_fibex_data (files_of l) = None.
Proof. exact load_layout_missing_pdu. Qed.
Check c11_missing_pdu : forall (a : afibex) (l : layout) f i,
  is_layout_of a l -> elements_ok (render_elements a) = true ->
  In f (a_frames a) -> In i (af_pdus f) ->
  (forall p, In p (a_pdus a) -> ap_id p <> snd i) ->
  load (files_of l) = Refused /\ gather_fibex_data (files_of l) = None.
Print Assumptions c11_missing_pdu.

(* the meaning exists exactly when no frame has a dangling PDU reference *)
Theorem c11_denote_none : forall els,
  denote els = None <->
  exists f i, In (ElFrame f) els /\ In i (af_pdus f) /\ pdu_defined els (snd i) = false.
Proof. exact denote_none. Qed.
Check c11_denote_none : forall els,
  denote els = None <->
  exists f i, In (ElFrame f) els /\ In i (af_pdus f) /\ pdu_defined els (snd i) = false.
Print Assumptions c11_denote_none.

(* ---- lookup ---- *)
Theorem c11_lookup : forall m id,
  (forall eh, extract_metadata m id (Some eh)
              = key_get (e_ctid eh, e_apid eh, bs "ID_" ++ decimal id) (frame_map_with_key m)) /\
  extract_metadata m id None = assoc_get (bs "ID_" ++ decimal id) (frame_map m).
Proof. exact extract_metadata_spec. Qed.
Check c11_lookup : forall m id,
  (forall eh, extract_metadata m id (Some eh)
              = key_get (e_ctid eh, e_apid eh, bs "ID_" ++ decimal id) (frame_map_with_key m)) /\
  extract_metadata m id None = assoc_get (bs "ID_" ++ decimal id) (frame_map m).
Print Assumptions c11_lookup.

(* distinct message ids never share a key *)
Theorem c11_lookup_key_injective : forall a b, id_text a = id_text b -> a = b.
Proof. exact id_text_inj. Qed.
Check c11_lookup_key_injective : forall a b, id_text a = id_text b -> a = b.
Print Assumptions c11_lookup_key_injective.

(* what is returned is the entry stored under exactly the requested ids *)
Theorem c11_lookup_sound : forall m id eh f,
  (extract_metadata m id (Some eh) = Some f ->
     In ((e_ctid eh, e_apid eh, id_text id), f) (frame_map_with_key m)) /\
  (extract_metadata m id None = Some f -> In (id_text id, f) (frame_map m)).
Proof. exact extract_metadata_sound. Qed.
Check c11_lookup_sound : forall m id eh f,
  (extract_metadata m id (Some eh) = Some f ->
     In ((e_ctid eh, e_apid eh, id_text id), f) (frame_map_with_key m)) /\
  (extract_metadata m id None = Some f -> In (id_text id, f) (frame_map m)).
Print Assumptions c11_lookup_sound.

(* ---- the sort ---- *)
Theorem c11_sort_stable : forall (A : Type) (l : list (N * A)),
  Permutation (sort_by_key l) l /\
  StronglySorted key_le (sort_by_key l) /\
  (forall k, filter (has_key k) (sort_by_key l) = filter (has_key k) l).
Proof. exact (@sort_by_key_spec). Qed.
Check c11_sort_stable : forall (A : Type) (l : list (N * A)),
  Permutation (sort_by_key l) l /\
  StronglySorted key_le (sort_by_key l) /\
  (forall k, filter (has_key k) (sort_by_key l) = filter (has_key k) l).
Print Assumptions c11_sort_stable.

(* ... and these properties pin the result down *)
Theorem c11_sort_unique : forall (A : Type) (l l' : list (N * A)),
  StronglySorted key_le l' ->
  (forall k, filter (has_key k) l' = filter (has_key k) l) ->
  l' = sort_by_key l.
Proof. exact (@sort_by_key_unique). Qed.
Check c11_sort_unique : forall (A : Type) (l l' : list (N * A)),
  StronglySorted key_le l' ->
  (forall k, filter (has_key k) l' = filter (has_key k) l) ->
  l' = sort_by_key l.
Print Assumptions c11_sort_unique.

(* numbers printed in decimal are read back by the crate's `parse::<usize>()` *)
Theorem c11_decimal_roundtrip : forall n, n < 2 ^ 64 -> usize_from_str (decimal n) = Some n.
Proof. exact usize_from_str_decimal. Qed.
Check c11_decimal_roundtrip : forall n, n < 2 ^ 64 -> usize_from_str (decimal n) = Some n.
Print Assumptions c11_decimal_roundtrip.

(* ---- the hypotheses are satisfiable: a small model, laid out over two files ---- *)
Definition ex_p1 : apdu :=
  mkAPdu (bs "P1") (bs "P1") (Some (bs "first")) 12
         [(1, bs "S_UINT8"); (0, bs "SIG1"); (1, bs "S_STRG_UTF8"); (7, bs "S_NOSUCH")].
Definition ex_p2 : apdu := mkAPdu (bs "P2") (bs "P2") None 0 [].
Definition ex_f7 : aframe :=
  mkAFrame (bs "ID_7") (bs "frame7") 12 (Some (bs "APP")) (Some (bs "CTX"))
           (Some (bs "DLT_TYPE_LOG")) (Some (bs "DLT_LOG_WARN")) [(1, bs "P2"); (0, bs "P1")].
Definition ex_f8 : aframe :=
  mkAFrame (bs "ID_8") (bs "frame8") 0 None None None None [(0, bs "P2")].
Definition ex_model : afibex :=
  mkAFibex [ex_f7; ex_f8] [ex_p1; ex_p2] [(bs "SIG1", bs "COD1")] [(bs "COD1", bs "A_FLOAT64")].
Definition ex_layout : layout :=
  [ [ElCoding (bs "COD1") (bs "A_FLOAT64"); ElFrame ex_f7; ElPdu ex_p2];
    [ElFrame ex_f8; ElSignal (bs "SIG1") (bs "COD1"); ElPdu ex_p1] ].

Example c11_ex_model_ok : model_ok ex_model = true.
Proof. vm_compute. reflexivity. Qed.

Example c11_ex_layout : is_layout_of ex_model ex_layout.
Proof.
  split; [discriminate|].
  cbn [ex_layout ex_model concat app render_elements map a_pdus a_frames a_signals a_codings fst snd].
  (* each element of the layout in turn, found at its place in the model's own order *)
  apply Permutation_cons_app with (l1 := [ElPdu ex_p1; ElPdu ex_p2; ElFrame ex_f7; ElFrame ex_f8; ElSignal _ _]).
  apply Permutation_cons_app with (l1 := [ElPdu ex_p1; ElPdu ex_p2]).
  apply Permutation_cons_app with (l1 := [ElPdu ex_p1]).
  apply Permutation_cons_app with (l1 := [ElPdu ex_p1]).
  apply Permutation_cons_app with (l1 := [ElPdu ex_p1]).
  apply Permutation_refl.
Qed.

Example c11_ex_unique : unique_ids (render_elements ex_model).
Proof.
  split; vm_compute;
    repeat (constructor; [intros H; repeat (destruct H as [H|H]; [discriminate H|]); exact H|]);
    constructor.
Qed.

(* the frame the loader produces: PDUs P1, P2 in sequence order; P1's signal types in sequence
   order with the equal keys 1, 1 in document order, SIG1 resolved through COD1 to a 64-bit float,
   the unknown reference skipped *)
Definition ex_frame7 : frame_metadata :=
  mkFrame (bs "frame7")
    [ mkPdu (Some (bs "first")) [ti_float64; ti_uint8; ti_utf8_str]; mkPdu None [] ]
    (Some (bs "APP")) (Some (bs "CTX")) (Some (bs "DLT_TYPE_LOG")) (Some (bs "DLT_LOG_WARN")).

Example c11_ex_load :
  exists m, gather_fibex_data (files_of ex_layout) = Some m /\
            extract_metadata m 7 None = Some ex_frame7 /\
            extract_metadata m 7 (Some (mkExt false 0 (MLog Info) (bs "APP") (bs "CTX"))) = Some ex_frame7 /\
            extract_metadata m 7 (Some (mkExt false 0 (MLog Info) (bs "APP") (bs "XXX"))) = None /\
            extract_metadata m 8 (Some (mkExt false 0 (MLog Info) (bs "APP") (bs "CTX"))) = None /\
            extract_metadata m 9 None = None.
Proof. eexists. split; [vm_compute; reflexivity|]. vm_compute. repeat split. Qed.

(* first definition wins; a dangling reference refuses the lot *)
Example c11_ex_duplicate :
  exists m, gather_fibex_data (files_of [[ElPdu ex_p2; ElFrame ex_f8];
                                          [ElFrame (mkAFrame (bs "ID_8") (bs "other") 0 None None None None [])]])
            = Some m /\
            option_map fm_short_name (extract_metadata m 8 None) = Some (bs "frame8").
Proof. eexists. split; vm_compute; reflexivity. Qed.
Example c11_ex_dangling : gather_fibex_data (files_of [[ElFrame ex_f8]]) = None.
Proof. vm_compute. reflexivity. Qed.
Example c11_ex_sort :
  sort_by_key [(2, bs "c"); (1, bs "a"); (2, bs "d"); (1, bs "b"); (0, bs "z")]
  = [(0, bs "z"); (1, bs "a"); (1, bs "b"); (2, bs "c"); (2, bs "d")].
Proof. vm_compute. reflexivity. Qed.
