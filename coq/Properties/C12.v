(* C12 — "For every file content - valid, truncated at any byte, with elements or attributes
   removed, or arbitrarily corrupted - and for missing files, loading terminates promptly and
   returns either a model or nothing; it never loops forever and never panics."

   The model (Model/Fibex.v) starts at the XML event sequence quick-xml delivers for the file
   content, whatever that content is; a missing file is [FileMissing].  The statements below are
   about the REPAIRED read_pdu/read_frame (Eof inside a PDU/FRAME is an error);
   [c12_pinned_refuted] shows that the pre-repair loops spin forever on a truncated file. *)
From Coq.Strings Require Import Ascii String.
From DltV.Model Require Import Bytes RustInt Dlt Fibex.
From DltV.Proofs Require Import FibexTerm.
Open Scope N_scope.

(* terminates within a number of loop iterations linear in the size of the input ... *)
Theorem c12_terminates : forall files, load_fuel (fuel_bound files) files <> OutOfFuel.
Proof. exact load_terminates. Qed.
Check c12_terminates : forall files, load_fuel (fuel_bound files) files <> OutOfFuel.
Print Assumptions c12_terminates.

Theorem c12_fuel_bound_linear : forall files, fuel_bound files = S (S (total_events files)).
Proof. exact fuel_bound_linear. Qed.
Check c12_fuel_bound_linear : forall files, fuel_bound files = S (S (total_events files)).
Print Assumptions c12_fuel_bound_linear.

(* ... and the answer does not depend on the fuel once there is enough of it *)
Theorem c12_fuel_monotone : forall n files r,
  load_fuel n files = r -> r <> OutOfFuel -> forall m, (n <= m)%nat -> load_fuel m files = r.
Proof. exact load_fuel_mono. Qed.
Check c12_fuel_monotone : forall n files r,
  load_fuel n files = r -> r <> OutOfFuel -> forall m, (n <= m)%nat -> load_fuel m files = r.
Print Assumptions c12_fuel_monotone.

(* never panics: the only index/slice expressions (attr_opt) are modelled with explicit bounds
   checks that yield LoadPanic, and no input reaches them out of bounds *)
Theorem c12_no_panic : forall n files, load_fuel n files <> LoadPanic.
Proof. exact load_no_panic. Qed.
Check c12_no_panic : forall n files, load_fuel n files <> LoadPanic.
Print Assumptions c12_no_panic.

Theorem c12_model_or_nothing : forall files,
  (exists m, load files = Loaded m /\ gather_fibex_data files = Some m) \/
  (load files = Refused /\ gather_fibex_data files = None).
Proof. exact load_model_or_nothing. Qed.
Check c12_model_or_nothing : forall files,
  (exists m, load files = Loaded m /\ gather_fibex_data files = Some m) \/
  (load files = Refused /\ gather_fibex_data files = None).
Print Assumptions c12_model_or_nothing.

(* the pre-repair code: a file that ends inside a PDU makes the loader spin forever *)
Theorem c12_pinned_refuted : exists files, forall fuel, load_pinned fuel files = OutOfFuel.
Proof. exact load_pinned_refuted. Qed.
Check c12_pinned_refuted : exists files, forall fuel, load_pinned fuel files = OutOfFuel.
Print Assumptions c12_pinned_refuted.

(* concrete runs *)
Definition ex_id (v : string) : xattr := Attr (bs "ID") (Some (bs v)).
Definition ex_truncated_pdu : list xfile := [FileEvents [XStart (bs "PDU") [ex_id "x"]]].
Definition ex_truncated_frame : list xfile :=
  [FileEvents [XStart (bs "FRAME") [ex_id "x"]; XStart (bs "SHORT-NAME") []; XText (Some (bs "n"))]].

Example c12_ex_truncated_pdu_repaired : load ex_truncated_pdu = Refused.
Proof. vm_compute. reflexivity. Qed.
Example c12_ex_truncated_pdu_pinned : load_pinned 1000 ex_truncated_pdu = OutOfFuel.
Proof. vm_compute. reflexivity. Qed.
Example c12_ex_truncated_frame_repaired : load ex_truncated_frame = Refused.
Proof. vm_compute. reflexivity. Qed.
Example c12_ex_truncated_frame_pinned : load_pinned 1000 ex_truncated_frame = OutOfFuel.
Proof. vm_compute. reflexivity. Qed.
Example c12_ex_missing_file : load [FileEvents []; FileMissing] = Refused.
Proof. vm_compute. reflexivity. Qed.
Example c12_ex_no_files : load [] = Refused.
Proof. vm_compute. reflexivity. Qed.
Example c12_ex_empty_file : load [FileEvents []] = Loaded (mkMeta [] []).
Proof. vm_compute. reflexivity. Qed.
Example c12_ex_xml_error : load [FileEvents [XOther; XErr]] = Refused.
Proof. vm_compute. reflexivity. Qed.
(* an attribute error before the ID attribute, a missing ID, a value that fails to unescape *)
Example c12_ex_attr_err :
  load [FileEvents [XStart (bs "PDU") [AttrErr; ex_id "x"]]] = Refused /\
  load [FileEvents [XStart (bs "PDU") []]] = Refused /\
  load [FileEvents [XStart (bs "PDU") [Attr (bs "ID") None]]] = Refused.
Proof. vm_compute. auto. Qed.
(* a key that merely ends in the name without ':' does not match and does not panic *)
Example c12_ex_attr_suffix :
  attr_opt [Attr (bs "XID") (Some (bs "a")); Attr (bs "n:ID") (Some (bs "b")); AttrErr] (bs "ID")
  = AVal (Some (bs "b")).
Proof. vm_compute. reflexivity. Qed.
