(* C15 — "The length an argument reports equals the number of bytes it serialises to in either
   byte order.  A message built by the message constructor from any configuration that fits the
   16-bit length field records a payload length equal to its serialised payload, reports a byte
   length equal to its serialisation without storage header, sets the verbose flag and argument
   count that its payload kind requires, and parses back to an equal message; adding a storage
   header only prepends 16 bytes carrying the given time and the header ECU id (or the default
   id).  An argument typed bool or 32/64-bit float that carries a value of another kind fails the
   validity check."

   [arg_len]/[arg_bytes]/[arg_valid] = Argument::len/as_bytes/valid, [message_new] = Message::new,
   [byte_len] = Message::byte_len, [add_storage_header m ts] = Message::add_storage_header(Some ts)
   (Model/Dlt.v).  Domains: [wf_arg] (Spec/WellFormed.v), [wf_config] (Spec/WellFormedConfig.v).

   "any configuration that fits the 16-bit length field" is made precise by [wf_config]; by
   [c15_config_exact] it is EXACTLY the set of configurations from which Message::new builds a
   well-formed message (the domain of the round trip C01), so nothing is excluded beyond need.
   The excluded classes (payload kind not matching the extended-header configuration, > 255
   arguments, total > 65535) are shown by the examples [c15_excluded_*] below to violate the
   conclusion, i.e. the exclusions are necessary.

   "parses back to an equal message" is the composition with C01: [c15_new_parses] and
   [c15_storage_parses] take the C01 statement as an explicit premise, [c15_new_roundtrip] and
   [c15_storage_roundtrip] at the end of the file discharge it. *)
From DltV.Model Require Import Bytes Nom Dlt Parse.
From DltV.Spec Require Import WellFormed WellFormedConfig.
From DltV.Proofs Require Import Lengths.
Open Scope N_scope.

(* ---------- Argument::len ---------- *)
Theorem c15_arg_len : forall a e, wf_arg a = true -> arg_len a = len (arg_bytes e a).
Proof. exact arg_len_bytes. Qed.
Check c15_arg_len : forall a e, wf_arg a = true -> arg_len a = len (arg_bytes e a).
Print Assumptions c15_arg_len.

(* ---------- Message::new ---------- *)
Theorem c15_new : forall c sh, wf_config c = true -> wf_opt wf_storage sh = true ->
  let m := message_new c sh in
  h_payload_length (m_header m) = len (payload_bytes (c_endian c) (c_payload c)) /\
  byte_len m = len (message_bytes (strip_storage m)) /\
  len (message_bytes m) = (if is_some sh then 16 else 0) + byte_len m /\
  (forall x, m_ext m = Some x ->
     e_verbose x = required_verbose (c_payload c) /\ e_noar x = required_noar (c_payload c)) /\
  wf_message m = true.
Proof. exact new_consistent. Qed.
Check c15_new : forall c sh, wf_config c = true -> wf_opt wf_storage sh = true ->
  let m := message_new c sh in
  h_payload_length (m_header m) = len (payload_bytes (c_endian c) (c_payload c)) /\
  byte_len m = len (message_bytes (strip_storage m)) /\
  len (message_bytes m) = (if is_some sh then 16 else 0) + byte_len m /\
  (forall x, m_ext m = Some x ->
     e_verbose x = required_verbose (c_payload c) /\ e_noar x = required_noar (c_payload c)) /\
  wf_message m = true.
Print Assumptions c15_new.

(* the constructor copies every field of the configuration; the extended header is present
   exactly when the configuration has extended-header info *)
Theorem c15_new_fields : forall c sh, let m := message_new c sh in
  m_storage m = sh /\ m_payload m = c_payload c /\
  h_version (m_header m) = c_version c /\ h_endian (m_header m) = c_endian c /\
  h_mcnt (m_header m) = c_counter c /\ h_ecu (m_header m) = c_ecu c /\
  h_session (m_header m) = c_session c /\ h_timestamp (m_header m) = c_timestamp c /\
  h_has_ext (m_header m) = is_some (c_ext c) /\
  option_map (fun x => mkExtCfg (e_mtype x) (e_apid x) (e_ctid x)) (m_ext m)
  = option_map (fun x => mkExtCfg (c_mtype x) (c_apid x) (c_ctid x)) (c_ext c).
Proof.
  intros c sh m. subst m. rewrite message_new_eq.
  cbn [m_storage m_payload m_header m_ext h_version h_endian h_mcnt h_ecu h_session h_timestamp h_has_ext].
  repeat split. destruct (c_ext c); reflexivity.
Qed.
Check c15_new_fields : forall c sh, let m := message_new c sh in
  m_storage m = sh /\ m_payload m = c_payload c /\
  h_version (m_header m) = c_version c /\ h_endian (m_header m) = c_endian c /\
  h_mcnt (m_header m) = c_counter c /\ h_ecu (m_header m) = c_ecu c /\
  h_session (m_header m) = c_session c /\ h_timestamp (m_header m) = c_timestamp c /\
  h_has_ext (m_header m) = is_some (c_ext c) /\
  option_map (fun x => mkExtCfg (e_mtype x) (e_apid x) (e_ctid x)) (m_ext m)
  = option_map (fun x => mkExtCfg (c_mtype x) (c_apid x) (c_ctid x)) (c_ext c).
Print Assumptions c15_new_fields.

(* [wf_config] is exactly "Message::new yields a well-formed message" *)
Theorem c15_config_exact : forall c, wf_config c = wf_message (message_new c None).
Proof.
  intros c.
  rewrite new_wf_eq. reflexivity.
Qed.
Check c15_config_exact : forall c, wf_config c = wf_message (message_new c None).
Print Assumptions c15_config_exact.

(* composition with the round trip C01 (its statement is the premise) *)
Theorem c15_new_parses :
  (forall m rest, wf_message m = true ->
     dlt_message (message_bytes m ++ rest) None (is_some (m_storage m)) = POk (Item m) rest) ->
  forall c sh, wf_config c = true -> wf_opt wf_storage sh = true ->
  dlt_message (message_bytes (message_new c sh)) None (is_some sh) = POk (Item (message_new c sh)) [].
Proof.
  intros RT c sh Hc Hs. rewrite <- (app_nil_r (message_bytes (message_new c sh))) at 1.
  exact (RT _ [] (new_wf c sh Hc Hs)).
Qed.
Check c15_new_parses :
  (forall m rest, wf_message m = true ->
     dlt_message (message_bytes m ++ rest) None (is_some (m_storage m)) = POk (Item m) rest) ->
  forall c sh, wf_config c = true -> wf_opt wf_storage sh = true ->
  dlt_message (message_bytes (message_new c sh)) None (is_some sh) = POk (Item (message_new c sh)) [].
Print Assumptions c15_new_parses.

(* ---------- Message::add_storage_header(Some ts) ---------- *)
Theorem c15_storage : forall m ts,
  let pre := pat_DLT1 ++ put_uint LE 4 (ts_secs ts) ++ put_uint LE 4 (ts_micros ts)
             ++ put_zstring (storage_ecu m) 4 in
  message_bytes (add_storage_header m ts) = pre ++ message_bytes (strip_storage m) /\
  (wf_opt wf_id (h_ecu (m_header m)) = true -> len pre = 16) /\
  (m_storage m = None -> strip_storage m = m) /\
  byte_len (add_storage_header m ts) = byte_len m.
Proof.
  intros m ts pre. subst pre. split; [|split; [|split]].
  - rewrite storage_bytes, <- !app_assoc. reflexivity.
  - intros H. exact (len_storage_prefix _ _ _ (storage_ecu_len m (wf_opt_id_len _ H))).
  - apply strip_storage_id.
  - apply storage_byte_len.
Qed.
Check c15_storage : forall m ts,
  let pre := pat_DLT1 ++ put_uint LE 4 (ts_secs ts) ++ put_uint LE 4 (ts_micros ts)
             ++ put_zstring (storage_ecu m) 4 in
  message_bytes (add_storage_header m ts) = pre ++ message_bytes (strip_storage m) /\
  (wf_opt wf_id (h_ecu (m_header m)) = true -> len pre = 16) /\
  (m_storage m = None -> strip_storage m = m) /\
  byte_len (add_storage_header m ts) = byte_len m.
Print Assumptions c15_storage.

Theorem c15_storage_wf : forall m ts,
  wf_message m = true -> ts_secs ts < 2 ^ 32 -> ts_micros ts < 2 ^ 32 ->
  wf_message (add_storage_header m ts) = true.
Proof. exact storage_wf. Qed.
Check c15_storage_wf : forall m ts,
  wf_message m = true -> ts_secs ts < 2 ^ 32 -> ts_micros ts < 2 ^ 32 ->
  wf_message (add_storage_header m ts) = true.
Print Assumptions c15_storage_wf.

Theorem c15_storage_parses :
  (forall m rest, wf_message m = true ->
     dlt_message (message_bytes m ++ rest) None (is_some (m_storage m)) = POk (Item m) rest) ->
  forall m ts, wf_message m = true -> ts_secs ts < 2 ^ 32 -> ts_micros ts < 2 ^ 32 ->
  dlt_message (message_bytes (add_storage_header m ts)) None true
  = POk (Item (add_storage_header m ts)) [].
Proof.
  intros RT m ts W Hs Hu. rewrite <- (app_nil_r (message_bytes (add_storage_header m ts))) at 1.
  exact (RT _ [] (storage_wf m ts W Hs Hu)).
Qed.
Check c15_storage_parses :
  (forall m rest, wf_message m = true ->
     dlt_message (message_bytes m ++ rest) None (is_some (m_storage m)) = POk (Item m) rest) ->
  forall m ts, wf_message m = true -> ts_secs ts < 2 ^ 32 -> ts_micros ts < 2 ^ 32 ->
  dlt_message (message_bytes (add_storage_header m ts)) None true
  = POk (Item (add_storage_header m ts)) [].
Print Assumptions c15_storage_parses.

(* ---------- Argument::valid ---------- *)
Theorem c15_valid : forall a,
  (ti_kind_of (a_ti a) = KBool -> arg_valid a = value_is_bool (a_value a)) /\
  (ti_kind_of (a_ti a) = KFloat W32 -> arg_valid a = value_is_f32 (a_value a)) /\
  (ti_kind_of (a_ti a) = KFloat W64 -> arg_valid a = value_is_f64 (a_value a)).
Proof.
  intros a.
  unfold arg_valid. repeat split; intros ->; destruct (a_value a); reflexivity.
Qed.
Check c15_valid : forall a,
  (ti_kind_of (a_ti a) = KBool -> arg_valid a = value_is_bool (a_value a)) /\
  (ti_kind_of (a_ti a) = KFloat W32 -> arg_valid a = value_is_f32 (a_value a)) /\
  (ti_kind_of (a_ti a) = KFloat W64 -> arg_valid a = value_is_f64 (a_value a)).
Print Assumptions c15_valid.

Theorem c15_wf_valid : forall a, wf_arg a = true -> arg_valid a = true.
Proof.
  intros a W. apply wf_arg_cases in W as [_ W].
  destruct (numeric_of (ti_kind_of (a_ti a))) as [[fw wv]|] eqn:N.
  - exact (numeric_valid a fw wv N (proj2 (proj2 W))).
  - exact (named_valid a N (proj2 (proj2 W))).
Qed.
Check c15_wf_valid : forall a, wf_arg a = true -> arg_valid a = true.
Print Assumptions c15_wf_valid.

(* ================= non-vacuity ================= *)
Definition ex_name : list byte := [x61; x62].            (* "ab" *)
Definition ex_unit : list byte := [x6d; x56].            (* "mV" *)

(* one argument of every kind, with and without variable info, both fixed-point widths *)
Definition ex_args : list argument :=
  [ mkArg (mkTI KBool SAscii true false) (Some ex_name) None None (VBool 1);
    mkArg (mkTI KBool SAscii false false) None None None (VBool 0);
    mkArg (mkTI (KSigned BL16) SAscii true false) (Some ex_name) (Some ex_unit) None (VI16 (-2)%Z);
    mkArg (mkTI (KSigned BL128) SAscii false false) None None None (VI128 (-2)%Z);
    mkArg (mkTI (KUnsigned BL64) SUtf8 false true) None None None (VU64 77);
    mkArg (mkTI (KUnsigned BL8) SAscii true false) (Some []) (Some []) None (VU8 255);
    mkArg (mkTI (KSignedFixed W32) SAscii true false) (Some ex_name) (Some ex_unit)
          (Some (mkFP 1065353216 (FI32 (-5)%Z))) (VI32 7%Z);
    mkArg (mkTI (KSignedFixed W64) SAscii false false) None None
          (Some (mkFP 1065353216 (FI64 (-5)%Z))) (VI64 7%Z);
    mkArg (mkTI (KUnsignedFixed W32) SAscii false false) None None (Some (mkFP 0 (FI32 5%Z))) (VU32 7);
    mkArg (mkTI (KUnsignedFixed W64) SAscii true false) (Some ex_name) (Some ex_unit)
          (Some (mkFP 0 (FI64 5%Z))) (VU64 7);
    mkArg (mkTI (KFloat W32) SAscii true false) (Some ex_name) (Some ex_unit) None (VF32 1065353216);
    mkArg (mkTI (KFloat W64) SAscii false false) None None None (VF64 4607182418800017408);
    mkArg (mkTI KString SUtf8 true false) (Some ex_name) None None (VString [xc3; xa4; x62]);
    mkArg (mkTI KString SAscii false false) None None None (VString []);
    mkArg (mkTI KRaw SAscii true false) (Some ex_name) None None (VRaw [x00; xff; x01]);
    mkArg (mkTI KRaw (SReserved 5) false false) None None None (VRaw []) ].

Example c15_arg_len_example :
  forallb wf_arg ex_args = true /\
  map arg_len ex_args = [10; 5; 16; 20; 12; 11; 26; 24; 16; 34; 18; 12; 15; 7; 14; 6] /\
  map (fun a => len (arg_bytes LE a)) ex_args = map arg_len ex_args /\
  map (fun a => len (arg_bytes BE a)) ex_args = map arg_len ex_args.
Proof. vm_compute. repeat split. Qed.

(* outside [wf_arg] the two lengths do differ: a name on an argument without variable info is
   counted by len() but not written; a value of the wrong variant is counted but not written *)
Example c15_arg_len_needs_wf :
  let a1 := mkArg (mkTI (KUnsigned BL8) SAscii false false) (Some ex_name) None None (VU8 1) in
  let a2 := mkArg (mkTI (KUnsigned BL32) SAscii false false) None None None (VBool 1) in
  (wf_arg a1 = false /\ arg_len a1 = 10 /\ len (arg_bytes LE a1) = 5) /\
  (wf_arg a2 = false /\ arg_len a2 = 8 /\ len (arg_bytes LE a2) = 4).
Proof. vm_compute. repeat split. Qed.

Definition ex_xc : ext_config := mkExtCfg (MLog Info) [x41; x50; x50] [x43; x54; x58; x31].
Definition ex_cfg_verbose : message_config :=
  mkCfg 1 7 BE (Some [x45; x31]) (Some 42) (Some 1000) (PVerbose ex_args) (Some ex_xc).
Definition ex_cfg_nonverbose : message_config :=
  mkCfg 1 7 LE None None None (PNonVerbose 99 [x01; x02]) None.
Definition ex_cfg_nonverbose_ext : message_config :=
  mkCfg 1 7 LE None (Some 1) None (PNonVerbose 99 [x01; x02]) (Some ex_xc).
Definition ex_cfg_control : message_config :=
  mkCfg 1 255 BE None None (Some 5) (PControl CResponse [x13; x00])
        (Some (mkExtCfg (MControl CResponse) [x41] [])).
Definition ex_cfg_trace : message_config :=
  mkCfg 1 0 BE (Some [x45; x31]) None None (PNetworkTrace [[x01; x02]; []; [x03]])
        (Some (mkExtCfg (MNwTrace NCan) [x41] [x42])).
Definition ex_cfgs := [ex_cfg_verbose; ex_cfg_nonverbose; ex_cfg_nonverbose_ext; ex_cfg_control; ex_cfg_trace].
Definition ex_sh : option storage_header := Some (mkSH (mkTS 1700000000 999999) [x45; x31]).

Example c15_new_example :
  forallb wf_config ex_cfgs = true /\ wf_opt wf_storage ex_sh = true /\
  map (fun c => let m := message_new c ex_sh in
         (h_payload_length (m_header m), byte_len m, len (message_bytes m),
          option_map (fun x => (e_verbose x, e_noar x)) (m_ext m))) ex_cfgs
  = [(246, 272, 288, Some (true, 16)); (6, 10, 26, None); (6, 24, 40, Some (false, 0));
     (3, 21, 37, Some (false, 0)); (21, 39, 55, Some (true, 3))] /\
  forallb (fun c => wf_message (message_new c ex_sh) && wf_message (message_new c None)) ex_cfgs = true.
Proof. vm_compute. repeat split. Qed.

(* the premise of [c15_new_parses] holds on these (evaluated, independent of the C01 proof) *)
Example c15_new_parses_example :
  forall c, In c ex_cfgs ->
  dlt_message (message_bytes (message_new c ex_sh)) None true = POk (Item (message_new c ex_sh)) [].
Proof.
  intros c H. cbn [In ex_cfgs] in H.
  repeat (destruct H as [<-|H]; [vm_compute; reflexivity|]). destruct H.
Qed.

Example c15_storage_example :
  let m := message_new ex_cfg_verbose None in
  let m' := message_new ex_cfg_nonverbose None in
  let ts := mkTS 1700000000 999999 in
  wf_message m = true /\ wf_message m' = true /\
  firstn 16 (message_bytes (add_storage_header m ts))
  = [x44; x4c; x54; x01; x00; xf1; x53; x65; x3f; x42; x0f; x00; x45; x31; x00; x00] /\
  skipn 16 (message_bytes (add_storage_header m ts)) = message_bytes m /\
  firstn 16 (message_bytes (add_storage_header m' ts))
  = [x44; x4c; x54; x01; x00; xf1; x53; x65; x3f; x42; x0f; x00; x45; x43; x55; x00] /\
  skipn 16 (message_bytes (add_storage_header m' ts)) = message_bytes m' /\
  wf_message (add_storage_header m ts) = true /\ wf_message (add_storage_header m' ts) = true.
Proof. vm_compute. repeat split. Qed.

Example c15_valid_example :
  let tb := mkTI KBool SAscii false false in
  let tf := mkTI (KFloat W32) SAscii false false in
  let td := mkTI (KFloat W64) SAscii false false in
  map arg_valid
    [ mkArg tb None None None (VBool 1); mkArg tb None None None (VU8 1);
      mkArg tf None None None (VF32 0); mkArg tf None None None (VF64 0);
      mkArg td None None None (VF64 0); mkArg td None None None (VF32 0);
      mkArg td None None None (VString []) ]
  = [true; false; true; false; true; false; false].
Proof. vm_compute. reflexivity. Qed.

(* ---------- the exclusions of [wf_config] are necessary ---------- *)
Definition ex_raw : argument :=
  mkArg (mkTI KRaw SAscii false false) None None None (VRaw [x01; x02; x03; x04]).

(* verbose payload, no extended-header configuration: no extended header is written and the bytes
   read back as a non-verbose payload *)
Example c15_excluded_verbose_without_ext :
  let c := mkCfg 1 7 LE None None None (PVerbose [ex_raw]) None in
  wf_config c = false /\
  exists m', dlt_message (message_bytes (message_new c None)) None false = POk (Item m') [] /\
             m_payload m' = PNonVerbose 1024 [x04; x00; x01; x02; x03; x04].
Proof. split; [reflexivity|]. eexists. split; vm_compute; reflexivity. Qed.

(* verbose payload under a network-trace message type reads back as network-trace slices *)
Example c15_excluded_verbose_nw_type :
  let c := mkCfg 1 7 LE None None None (PVerbose [ex_raw])
                 (Some (mkExtCfg (MNwTrace NCan) [x41] [x42])) in
  wf_config c = false /\
  exists m', dlt_message (message_bytes (message_new c None)) None false = POk (Item m') [] /\
             m_payload m' = PNetworkTrace [[x01; x02; x03; x04]].
Proof. split; [reflexivity|]. eexists. split; vm_compute; reflexivity. Qed.

(* network-trace slices under another message type read back as raw verbose arguments *)
Example c15_excluded_trace_other_type :
  let c := mkCfg 1 7 LE None None None (PNetworkTrace [[x01]]) (Some ex_xc) in
  wf_config c = false /\
  exists m', dlt_message (message_bytes (message_new c None)) None false = POk (Item m') [] /\
             m_payload m' = PVerbose [mkArg (mkTI KRaw SAscii false false) None None None (VRaw [x01])].
Proof. split; [reflexivity|]. eexists. split; vm_compute; reflexivity. Qed.

(* control payload under a non-control message type reads back as non-verbose *)
Example c15_excluded_control_other_type :
  let c := mkCfg 1 7 LE None None None (PControl CRequest [x01; x02; x03]) (Some ex_xc) in
  wf_config c = false /\
  exists m', dlt_message (message_bytes (message_new c None)) None false = POk (Item m') [] /\
             m_payload m' = PNonVerbose 50462977 [].
Proof. split; [reflexivity|]. eexists. split; vm_compute; reflexivity. Qed.

(* more than 255 arguments: NOAR is `len as u8` *)
Fixpoint ex_double {A} (k : nat) (l : list A) : list A :=
  match k with O => l | S k' => ex_double k' (l ++ l) end.

Example c15_excluded_256_arguments :
  let c := mkCfg 1 7 LE None None None (PVerbose (ex_double 8 [ex_raw])) (Some ex_xc) in
  wf_config c = false /\ required_noar (c_payload c) = 256 /\
  option_map e_noar (m_ext (message_new c None)) = Some 0.
Proof. vm_compute. repeat split. Qed.

(* a payload beyond the 16-bit length field: payload_length is `len as u16` *)
Example c15_excluded_too_long :
  let c := mkCfg 1 7 LE None None None (PNonVerbose 1 (ex_double 16 [x00])) None in
  wf_config c = false /\ len (payload_bytes LE (c_payload c)) = 65540 /\
  h_payload_length (m_header (message_new c None)) = 4 /\ byte_len (message_new c None) = 8.
Proof. vm_compute. repeat split. Qed.

(* the boundary: a total of exactly 65535 is inside *)
Example c15_boundary_65535 :
  let c := mkCfg 1 7 LE None None None
             (PNonVerbose 1 (skipn 9 (ex_double 16 [x00]))) None in
  wf_config c = true /\ byte_len (message_new c None) = 65535 /\
  len (message_bytes (message_new c None)) = 65535.
Proof. vm_compute. repeat split. Qed.

(* ---------- the parse-back clauses themselves: the premise above is C01 ---------- *)
From DltV.Proofs Require Roundtrip.

Theorem c15_new_roundtrip : forall c sh, wf_config c = true -> wf_opt wf_storage sh = true ->
  dlt_message (message_bytes (message_new c sh)) None (is_some sh) = POk (Item (message_new c sh)) [].
Proof. exact (c15_new_parses Roundtrip.message_roundtrip). Qed.
Check c15_new_roundtrip : forall c sh, wf_config c = true -> wf_opt wf_storage sh = true ->
  dlt_message (message_bytes (message_new c sh)) None (is_some sh) = POk (Item (message_new c sh)) [].
Print Assumptions c15_new_roundtrip.

Theorem c15_storage_roundtrip : forall m ts,
  wf_message m = true -> ts_secs ts < 2 ^ 32 -> ts_micros ts < 2 ^ 32 ->
  dlt_message (message_bytes (add_storage_header m ts)) None true
  = POk (Item (add_storage_header m ts)) [].
Proof. exact (c15_storage_parses Roundtrip.message_roundtrip). Qed.
Check c15_storage_roundtrip : forall m ts,
  wf_message m = true -> ts_secs ts < 2 ^ 32 -> ts_micros ts < 2 ^ 32 ->
  dlt_message (message_bytes (add_storage_header m ts)) None true
  = POk (Item (add_storage_header m ts)) [].
Print Assumptions c15_storage_roundtrip.
