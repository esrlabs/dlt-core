(* C19b — last sentence of C19: "The 4-byte id fields (ECU id, application id, context id) obey the same
   rule."  Every id of every successfully parsed header / message IS the result of the fixed-size string
   extraction [zstring 4] (Model/Parse.v, = dlt_zero_terminated_string(_, 4)) applied at the offset of
   its 4-byte field; [c19b_field_value] (with c19_enough / c19_utf8 / c19_upto_nul of Properties/C19.v)
   then says that the id is the longest valid-UTF-8 prefix of the bytes that precede the first NUL among
   these 4 bytes (all 4 if there is none). *)
From DltV.Model Require Import Bytes Utf8 Nom Dlt Parse.
From DltV.Proofs Require Import ZString ParseLemmas Consumption IdFields.
Open Scope N_scope.

(* the rule, read backwards: whatever [zstring 4] returned was computed from exactly 4 bytes *)
Theorem c19b_field_value : forall s id r, zstring 4 s = POk id r ->
  4 <= len s /\ id = utf8_prefix (upto_nul (firstn (N.to_nat 4) s)) /\ r = skipn (N.to_nat 4) s.
Proof. exact (zstring_ok_inv 4). Qed.
Check c19b_field_value : forall s id r, zstring 4 s = POk id r ->
  4 <= len s /\ id = utf8_prefix (upto_nul (firstn (N.to_nat 4) s)) /\ r = skipn (N.to_nat 4) s.
Print Assumptions c19b_field_value.

(* standard header: HTYP, MCNT, LEN(2), then the ECU id — offset 4 *)
Theorem c19b_ecu : forall i h rest id,
  dlt_standard_header i = POk h rest -> h_ecu h = Some id -> exists r, zstring 4 (skipn 4 i) = POk id r.
Proof.
  intros i h rest id H He. pose proof (sf_ecu _ _ _ (dlt_standard_header_inv _ _ _ H)) as F. rewrite He in F. exact (proj2 F).
Qed.
Check c19b_ecu : forall i h rest id,
  dlt_standard_header i = POk h rest -> h_ecu h = Some id -> exists r, zstring 4 (skipn 4 i) = POk id r.
Print Assumptions c19b_ecu.

(* extended header: MSIN, NOAR, then application id (offset 2) and context id (offset 6) *)
Theorem c19b_ext : forall i x rest,
  dlt_extended_header i = POk x rest ->
  exists r1 r2, zstring 4 (skipn 2 i) = POk (e_apid x) r1 /\ zstring 4 (skipn 6 i) = POk (e_ctid x) r2.
Proof.
  intros i x rest H. apply dlt_extended_header_inv in H as (_ & _ & r1 & H). now exists r1, rest.
Qed.
Check c19b_ext : forall i x rest,
  dlt_extended_header i = POk x rest ->
  exists r1 r2, zstring 4 (skipn 2 i) = POk (e_apid x) r1 /\ zstring 4 (skipn 6 i) = POk (e_ctid x) r2.
Print Assumptions c19b_ext.

(* storage header found behind k skipped bytes: pattern(4), seconds(4), microseconds(4), ECU id — offset k + 12 *)
Theorem c19b_storage : forall i sh k rest,
  dlt_storage_header i = POk (Some (sh, k)) rest ->
  exists r, zstring 4 (skipn (N.to_nat k + 12) i) = POk (sh_ecu sh) r.
Proof.
  intros i sh k rest.
  rewrite dlt_storage_header_eq. unfold forward_to_next_storage_header.
  destruct (len i <? 16); [discriminate|].
  destruct (find_pattern i) as [n|]; [|discriminate]. intros H.
  apply pmap_ok_inv in H as (s & Es & [= -> ->]). apply sh_core_inv in Es as (_ & Ez & _).
  exists rest. now rewrite Nat2N.id, <- BytesBasics.skipn_skipn_add.
Qed.
Check c19b_storage : forall i sh k rest,
  dlt_storage_header i = POk (Some (sh, k)) rest ->
  exists r, zstring 4 (skipn (N.to_nat k + 12) i) = POk (sh_ecu sh) r.
Print Assumptions c19b_storage.

(* the message parser.  [located sh bs skip after] (Proofs/Consumption.v): with storage headers the first
   pattern is at offset [skip] of [bs] and [after] is the input behind the 16-byte storage header; without,
   skip = 0 and after = bs.  [ids_are_fields] is pinned by c19b_ids_are_fields_def below: the storage-header
   ECU id exists iff the parser runs in storage-header mode and is the field at skip + 12; the header ECU id
   exists iff bit WEID (4) of the header-type byte is set and is the field at offset 4 of the standard
   header; application and context id exist iff bit UEH (1) is set and are the fields at offsets 2 and 6
   behind the standard header. *)
Theorem c19b_message : forall bs f sh m rest,
  dlt_message bs f sh = POk (Item m) rest ->
  exists skip after, located sh bs skip after /\ ids_are_fields sh bs m skip after.
Proof.
  intros bs f sh m rest H.
  apply dlt_message_inv in H as (skip & after & st & h & after_std & ext & ah & L & St & F & (_ & Ox & _ & Ix) & _ & _ & H).
  apply after_headers_step_inv in H as (_ & p & -> & _). exists skip, after. split; [exact L|].
  unfold ids_are_fields. cbn [m_storage m_header m_ext]. split; [|split].
  - destruct st as [s|]; [|exact St]. destruct St as (-> & _ & Ez). split; [reflexivity | now exists after].
  - exact (sf_ecu _ _ _ F).
  - destruct ext as [x|]; [|now symmetry]. split; [now symmetry|]. destruct (Ix x eq_refl) as (r1 & A & C).
    rewrite (proj2 (splits_firstn (sf_splits _ _ _ F))), !BytesBasics.skipn_skipn_add in A, C. exists r1, ah. split; [exact A | exact C].
Qed.
Check c19b_message : forall bs f sh m rest,
  dlt_message bs f sh = POk (Item m) rest ->
  exists skip after, located sh bs skip after /\ ids_are_fields sh bs m skip after.
Print Assumptions c19b_message.

Theorem c19b_ids_are_fields_def : forall sh bs m skip after,
  ids_are_fields sh bs m skip after <->
  (match m_storage m with
   | Some s => sh = true /\ exists r, zstring 4 (skipn (N.to_nat skip + 12) bs) = POk (sh_ecu s) r
   | None => sh = false
   end /\
   match h_ecu (m_header m) with
   | Some id => flag (htyp_of after) 4 = true /\ exists r, zstring 4 (skipn 4 after) = POk id r
   | None => flag (htyp_of after) 4 = false
   end /\
   match m_ext m with
   | Some x => flag (htyp_of after) 1 = true /\
               exists r1 r2,
                 zstring 4 (skipn (N.to_nat (calculate_standard_header_length (htyp_of after)) + 2) after)
                   = POk (e_apid x) r1 /\
                 zstring 4 (skipn (N.to_nat (calculate_standard_header_length (htyp_of after)) + 6) after)
                   = POk (e_ctid x) r2
   | None => flag (htyp_of after) 1 = false
   end).
Proof. intros. reflexivity. Qed.
Check c19b_ids_are_fields_def : forall sh bs m skip after,
  ids_are_fields sh bs m skip after <->
  (match m_storage m with
   | Some s => sh = true /\ exists r, zstring 4 (skipn (N.to_nat skip + 12) bs) = POk (sh_ecu s) r
   | None => sh = false
   end /\
   match h_ecu (m_header m) with
   | Some id => flag (htyp_of after) 4 = true /\ exists r, zstring 4 (skipn 4 after) = POk id r
   | None => flag (htyp_of after) 4 = false
   end /\
   match m_ext m with
   | Some x => flag (htyp_of after) 1 = true /\
               exists r1 r2,
                 zstring 4 (skipn (N.to_nat (calculate_standard_header_length (htyp_of after)) + 2) after)
                   = POk (e_apid x) r1 /\
                 zstring 4 (skipn (N.to_nat (calculate_standard_header_length (htyp_of after)) + 6) after)
                   = POk (e_ctid x) r2
   | None => flag (htyp_of after) 1 = false
   end).
Print Assumptions c19b_ids_are_fields_def.

(* ---------- examples (by evaluation) ---------- *)
(* junk 'X', storage header with ECU field 'E' 0xC3 NUL 'Z' (the NUL cuts "E\xC3", the dangling lead byte is
   dropped by the UTF-8 rule -> "E"); standard header HTYP 0x35 (UEH, WEID, WTMS, version 1), LEN 0x1a = 26,
   ECU field "AB" NUL 'C' -> "AB"; timestamp; extended header MSIN 0x41 (verbose, log info), NOAR 0,
   application id "APP" NUL, context id 'C' 0xFF 'X' 'Y' (invalid UTF-8 at index 1 -> "C"); no arguments;
   4 unparsed payload bytes *)
Definition ex_bs : list byte :=
  [x58;
   x44; x4c; x54; x01; x01; x00; x00; x00; x02; x00; x00; x00; x45; xc3; x00; x5a;
   x35; x07; x00; x1a; x41; x42; x00; x43; x00; x00; x00; x09;
   x41; x00; x41; x50; x50; x00; x43; xff; x58; x59;
   x01; x02; x03; x04;
   xee].

Definition ex_m : message :=
  mkMsg (Some (mkSH (mkTS 1 2) [x45]))
        (mkStd 1 LE true 7 (Some [x41; x42]) None (Some 9) 4)
        (Some (mkExt true 0 (MLog Info) [x41; x50; x50] [x43]))
        (PVerbose []).

Example c19b_ex_message : dlt_message ex_bs None true = POk (Item ex_m) [xee].
Proof. vm_compute. reflexivity. Qed.

Example c19b_ex_fields :
  zstring 4 (skipn (1 + 12) ex_bs) = POk [x45] (skipn 17 ex_bs) /\
  zstring 4 (skipn 4 (skipn 17 ex_bs)) = POk [x41; x42] (skipn 25 ex_bs) /\
  htyp_of (skipn 17 ex_bs) = 53 /\ calculate_standard_header_length 53 = 12 /\
  zstring 4 (skipn (12 + 2) (skipn 17 ex_bs)) = POk [x41; x50; x50] (skipn 35 ex_bs) /\
  zstring 4 (skipn (12 + 6) (skipn 17 ex_bs)) = POk [x43] (skipn 39 ex_bs).
Proof. repeat split; vm_compute; reflexivity. Qed.

(* the single header parsers on the same bytes *)
Example c19b_ex_headers :
  (exists rest, dlt_storage_header ex_bs = POk (Some (mkSH (mkTS 1 2) [x45], 1)) rest) /\
  (exists h rest, dlt_standard_header (skipn 17 ex_bs) = POk h rest /\ h_ecu h = Some [x41; x42]) /\
  (exists x rest, dlt_extended_header (skipn 29 ex_bs) = POk x rest /\ e_apid x = [x41; x50; x50] /\ e_ctid x = [x43]).
Proof.
  split; [|split].
  - eexists. vm_compute. reflexivity.
  - eexists. eexists. split; vm_compute; reflexivity.
  - eexists. eexists. split; [vm_compute; reflexivity|]. split; reflexivity.
Qed.

(* a message without any id: no storage header, HTYP 0x20 (no WEID, no UEH) *)
Example c19b_ex_no_ids :
  exists m, dlt_message [x20; x00; x00; x08; x01; x02; x03; x04] None false = POk (Item m) []
            /\ m_storage m = None /\ h_ecu (m_header m) = None /\ m_ext m = None.
Proof. eexists. split; [vm_compute; reflexivity|]. repeat split. Qed.
