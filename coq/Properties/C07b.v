(* C07b — the blocking reader built with a caller-chosen scratch length,
     DltMessageReader::with_capacity(buffer_capacity, message_max_len, source, with_storage_header),
   `buffer: vec![0u8; message_max_len]` (read.rs:67-79).

   What this adds to C07: C07 (c07_fragmentation, c07_fragmentation_cap) is about the DEFAULT scratch of
   16 + 65535 bytes (Reader.new_scratch), which holds every message a u16 LEN field can declare.
   Here the scratch length mml is arbitrary:
     c07b_run            for EVERY mml, BufReader capacity, schedule, filter, storage mode the reader delivers
                         the scratch-aware run of the specification, spec_run_mml (Spec/ReaderMmlSpec.v);
     c07b_fits(_cuts)    if every call's need fits (header; complete pieces; the declared total of a trailing
                         record cut off by the end of the stream) this is spec_run — C07's statement;
     c07b_default_..      mml = 16 + 65535 is an instance (by unfolding), its side condition holds for every
                         stream, so c07_fragmentation_cap is a corollary;
     c07b_over / c07b_too_long / c07b_no_header
                         misuse: the outcomes of the records before the first one whose need exceeds mml, then
                         OPanic (debug_assert! in debug builds, the slice index in release builds);
     c07b_reader_of      the reader state the differential test (Model/Run.v: op_read) runs is this one.
   Model: Model/ReaderMml.v over Model/Reader.v (the REPAIRED read.rs).  Spec: Spec/ReaderMmlSpec.v. *)
From DltV.Model Require Import Bytes Reader ReaderMml.
From DltV.Model Require Run.
From DltV.Spec Require Import ReaderSpec ReaderMmlSpec.
From DltV.Proofs Require Import ReaderProofs ReaderMml.
Open Scope N_scope.

(* ---------- the run for every scratch length ---------- *)
Theorem c07b_run : forall mml cap sigma s f sh,
  reader_run_mml mml cap sigma s f sh = (spec_run_mml mml s f sh, true).
Proof. intros. apply run_start, br_read_exact_spec. Qed.
Check c07b_run : forall mml cap sigma s f sh,
  reader_run_mml mml cap sigma s f sh = (spec_run_mml mml s f sh, true).
Print Assumptions c07b_run.

(* ---------- 1. FITS ---------- *)
Theorem c07b_fits : forall mml cap sigma s f sh,
  fits_mml mml s sh = true ->
  reader_run_mml mml cap sigma s f sh = (spec_run s f sh, true).
Proof. intros. rewrite c07b_run, spec_run_mml_fits by assumption. reflexivity. Qed.
Check c07b_fits : forall mml cap sigma s f sh,
  fits_mml mml s sh = true ->
  reader_run_mml mml cap sigma s f sh = (spec_run s f sh, true).
Print Assumptions c07b_fits.

(* the side condition in words: the header, every complete piece of spec_cuts, and the declared total of a
   trailing record that is cut off by the end of the stream *)
Theorem c07b_fits_iff : forall mml s sh,
  fits_mml mml s sh = true
  <-> hdr_len sh <= mml
      /\ Forall (fun c => snd c <= mml) (spec_cuts s sh)
      /\ (forall t, trailing_total s sh = Some t -> t <= mml).
Proof. exact fits_mml_iff. Qed.
Check c07b_fits_iff : forall mml s sh,
  fits_mml mml s sh = true
  <-> hdr_len sh <= mml
      /\ Forall (fun c => snd c <= mml) (spec_cuts s sh)
      /\ (forall t, trailing_total s sh = Some t -> t <= mml).
Print Assumptions c07b_fits_iff.

Theorem c07b_fits_cuts : forall mml cap sigma s f sh,
  hdr_len sh <= mml ->
  Forall (fun c => snd c <= mml) (spec_cuts s sh) ->
  (forall t, trailing_total s sh = Some t -> t <= mml) ->
  reader_run_mml mml cap sigma s f sh = (spec_run s f sh, true).
Proof. intros. apply c07b_fits, fits_mml_iff. auto. Qed.
Check c07b_fits_cuts : forall mml cap sigma s f sh,
  hdr_len sh <= mml ->
  Forall (fun c => snd c <= mml) (spec_cuts s sh) ->
  (forall t, trailing_total s sh = Some t -> t <= mml) ->
  reader_run_mml mml cap sigma s f sh = (spec_run s f sh, true).
Print Assumptions c07b_fits_cuts.

(* the needs call by call = the lengths of the complete pieces, then the need of the last call *)
Theorem c07b_needs_by_cuts : forall s sh,
  spec_needs s sh = map snd (spec_cuts s sh) ++ [last_need s sh].
Proof. exact spec_needs_by_cuts. Qed.
Check c07b_needs_by_cuts : forall s sh,
  spec_needs s sh = map snd (spec_cuts s sh) ++ [last_need s sh].
Print Assumptions c07b_needs_by_cuts.

(* what the last call sees is the end of the stream or a cut-off record *)
Theorem c07b_rest_cut : forall s sh,
  spec_cut sh (spec_rest s sh) = CEnd \/ spec_cut sh (spec_rest s sh) = CTrunc.
Proof.
  intros s sh. unfold spec_rest, spec_cuts. rewrite <- dropN_skipn.
  destruct (spec_needs_fuel_by_cuts sh (length s + 1) 0 s) as (H & _); [|exact H].
  rewrite Nat.add_1_r. apply Nat.lt_succ_diag_r.
Qed.
Check c07b_rest_cut : forall s sh,
  spec_cut sh (spec_rest s sh) = CEnd \/ spec_cut sh (spec_rest s sh) = CTrunc.
Print Assumptions c07b_rest_cut.

(* ---------- 2. THE DEFAULT IS AN INSTANCE ---------- *)
Theorem c07b_default_instance : forall cap sigma s f sh,
  reader_run_mml message_max_len cap sigma s f sh = reader_run_cap cap sigma s f sh.
Proof. reflexivity. Qed.
Check c07b_default_instance : forall cap sigma s f sh,
  reader_run_mml message_max_len cap sigma s f sh = reader_run_cap cap sigma s f sh.
Print Assumptions c07b_default_instance.

Theorem c07b_default_fits : forall s sh, fits_mml message_max_len s sh = true.
Proof. exact fits_mml_default. Qed.
Check c07b_default_fits : forall s sh, fits_mml message_max_len s sh = true.
Print Assumptions c07b_default_fits.

(* ... and so does every larger scratch *)
Theorem c07b_large_fits : forall mml s sh, message_max_len <= mml -> fits_mml mml s sh = true.
Proof. exact fits_mml_ge_default. Qed.
Check c07b_large_fits : forall mml s sh, message_max_len <= mml -> fits_mml mml s sh = true.
Print Assumptions c07b_large_fits.

(* C07.c07_fragmentation_cap follows: c07b_fits at the instance, by c07b_default_fits (Proofs/ReaderMml.run_start_default) *)
Theorem c07b_default_corollary : forall cap sigma s f sh,
  reader_run_cap cap sigma s f sh = (spec_run s f sh, true).
Proof. intros. apply run_start_default, br_read_exact_spec. Qed.
Check c07b_default_corollary : forall cap sigma s f sh,
  reader_run_cap cap sigma s f sh = (spec_run s f sh, true).
Print Assumptions c07b_default_corollary.

(* ---------- 3. TOO LONG ---------- *)
(* general form: i = the index of the first call whose need exceeds mml.  A panic of dlt_message among
   the first i outcomes ends the run there (as in spec_run), hence until_panic. *)
Theorem c07b_over : forall mml cap sigma s f sh i,
  first_over mml (spec_needs s sh) = Some i ->
  reader_run_mml mml cap sigma s f sh = (until_panic (firstn i (spec_run s f sh) ++ [OPanic]), true).
Proof. intros. rewrite c07b_run, (spec_run_mml_over _ _ _ _ i) by assumption. reflexivity. Qed.
Check c07b_over : forall mml cap sigma s f sh i,
  first_over mml (spec_needs s sh) = Some i ->
  reader_run_mml mml cap sigma s f sh = (until_panic (firstn i (spec_run s f sh) ++ [OPanic]), true).
Print Assumptions c07b_over.

Theorem c07b_too_long : forall mml cap sigma s f sh i,
  first_over mml (spec_needs s sh) = Some i ->
  ~ In OPanic (firstn i (spec_run s f sh)) ->
  reader_run_mml mml cap sigma s f sh = (firstn i (spec_run s f sh) ++ [OPanic], true).
Proof. intros. rewrite c07b_run, (spec_run_mml_too_long _ _ _ _ i) by assumption. reflexivity. Qed.
Check c07b_too_long : forall mml cap sigma s f sh i,
  first_over mml (spec_needs s sh) = Some i ->
  ~ In OPanic (firstn i (spec_run s f sh)) ->
  reader_run_mml mml cap sigma s f sh = (firstn i (spec_run s f sh) ++ [OPanic], true).
Print Assumptions c07b_too_long.

(* 1 and 3 are exhaustive and exclusive *)
Theorem c07b_fits_or_over : forall mml s sh,
  fits_mml mml s sh = true <-> first_over mml (spec_needs s sh) = None.
Proof. exact fits_mml_first_over. Qed.
Check c07b_fits_or_over : forall mml s sh,
  fits_mml mml s sh = true <-> first_over mml (spec_needs s sh) = None.
Print Assumptions c07b_fits_or_over.

(* a scratch that cannot hold a header: the very first call panics, whatever the stream (even empty) *)
Theorem c07b_no_header : forall mml cap sigma s f sh,
  mml < hdr_len sh -> reader_run_mml mml cap sigma s f sh = ([OPanic], true).
Proof. intros. rewrite c07b_run, spec_run_mml_no_header by assumption. reflexivity. Qed.
Check c07b_no_header : forall mml cap sigma s f sh,
  mml < hdr_len sh -> reader_run_mml mml cap sigma s f sh = ([OPanic], true).
Print Assumptions c07b_no_header.

(* ---------- 4. THE TIE TO THE DIFFERENTIAL TEST ---------- *)
Theorem c07b_reader_of : forall mml sigma s, mml <> 0 ->
  Run.reader_of mml sigma s = mkReader (mkBR [] (mkSrc sigma s)) (scratch_of mml).
Proof. exact run_reader_of_mml. Qed.
Check c07b_reader_of : forall mml sigma s, mml <> 0 ->
  Run.reader_of mml sigma s = mkReader (mkBR [] (mkSrc sigma s)) (scratch_of mml).
Print Assumptions c07b_reader_of.

(* mml = 0 in a test case stands for the default *)
Theorem c07b_reader_of_0 : forall sigma s,
  Run.reader_of 0 sigma s = mkReader (mkBR [] (mkSrc sigma s)) (scratch_of message_max_len).
Proof. reflexivity. Qed.
Check c07b_reader_of_0 : forall sigma s,
  Run.reader_of 0 sigma s = mkReader (mkBR [] (mkSrc sigma s)) (scratch_of message_max_len).
Print Assumptions c07b_reader_of_0.

(* the run inside Run.op_read *)
Theorem c07b_op_read : forall c mml sigma s f sh, mml <> 0 ->
  run_with (br_read_exact (Run.cap_mml c mml)) true (length s + 1) f sh (Run.reader_of mml sigma s)
  = reader_run_mml mml (Run.cap_mml c mml) sigma s f sh.
Proof. intros. rewrite run_reader_of_mml by assumption. reflexivity. Qed.
Check c07b_op_read : forall c mml sigma s f sh, mml <> 0 ->
  run_with (br_read_exact (Run.cap_mml c mml)) true (length s + 1) f sh (Run.reader_of mml sigma s)
  = reader_run_mml mml (Run.cap_mml c mml) sigma s f sh.
Print Assumptions c07b_op_read.

(* ---------- examples ---------- *)
(* ex_m1 (8 bytes), ex_m2 (10 bytes), ex_sh (storage header), kinds: Spec/ReaderSpec.v;
   kinds: 0 = message, 2 = ParsingHickup, 3 = Unrecoverable, 4 = panic *)

(* three records (8 bytes; LEN = 2; 10 bytes), short reads and interruptions, BufReader capacity 3:
   mml = 10 = the longest total fits; mml = 9 ends in the panic at the third call *)
Example c07b_example_fits_and_over :
  let s := ex_m1 ++ [x00; x00; x00; x02] ++ ex_m2 in
  let sigma := [1; 0; 2; 0; 0; 5; 1] in
  spec_needs s false = [8; 4; 10; 4]
  /\ spec_cuts s false = [(0, 8); (8, 4); (12, 10)] /\ trailing_total s false = None
  /\ fits_mml 10 s false = true
  /\ kinds (reader_run_mml 10 3 sigma s None false) = ([0; 2; 0], true)
  /\ reader_run_mml 10 3 sigma s None false = reader_run_default [] s None false
  /\ fits_mml 9 s false = false /\ first_over 9 (spec_needs s false) = Some 2%nat
  /\ kinds (reader_run_mml 9 3 sigma s None false) = ([0; 2; 4], true)
  /\ first_over 7 (spec_needs s false) = Some 0%nat
  /\ kinds (reader_run_mml 7 3 sigma s None false) = ([4], true).
Proof. vm_compute. repeat split; reflexivity. Qed.

(* the hypotheses of c07b_too_long on that stream *)
Example c07b_example_too_long_hyps :
  let s := ex_m1 ++ [x00; x00; x00; x02] ++ ex_m2 in
  first_over 9 (spec_needs s false) = Some 2%nat
  /\ ~ In OPanic (firstn 2 (spec_run s None false)).
Proof. vm_compute. split; [reflexivity|]. intros [H|[H|[]]]; discriminate. Qed.

(* a trailing record cut off by the end of the stream: its declared total (10) counts although its body
   never arrives — with mml = 9 the reader panics where the default reader reports Unrecoverable *)
Example c07b_example_trailing :
  let s := ex_m1 ++ firstn 7 ex_m2 in
  spec_cuts s false = [(0, 8)] /\ trailing_total s false = Some 10
  /\ spec_needs s false = [8; 10]
  /\ fits_mml 10 s false = true /\ fits_mml 9 s false = false
  /\ kinds (reader_run_mml 10 3 [1; 0; 2; 0; 0; 5; 1] s None false) = ([0; 3], true)
  /\ kinds (reader_run_mml 9 3 [1; 0; 2; 0; 0; 5; 1] s None false) = ([0; 4], true).
Proof. vm_compute. repeat split; reflexivity. Qed.

(* with storage headers: totals 24 and 26 *)
Example c07b_example_storage_header :
  let s := ex_sh ++ ex_m1 ++ ex_sh ++ ex_m2 in
  spec_needs s true = [24; 26; 20]
  /\ fits_mml 26 s true = true /\ first_over 25 (spec_needs s true) = Some 1%nat
  /\ kinds (reader_run_mml 26 7 [5; 0; 30; 0; 1] s None true) = ([0; 0], true)
  /\ kinds (reader_run_mml 25 7 [5; 0; 30; 0; 1] s None true) = ([0; 4], true)
  /\ kinds (reader_run_mml 19 7 [5; 0; 30; 0; 1] s None true) = ([4], true)
  /\ kinds (reader_run_mml 19 7 [5; 0; 30; 0; 1] [] None true) = ([4], true).
Proof. vm_compute. repeat split; reflexivity. Qed.

(* c07b_reader_of / c07b_op_read: a test case with mml = 10, capacity field 0 *)
Example c07b_example_run :
  let s := ex_m1 ++ ex_m2 in
  rd_scratch (Run.reader_of 10 [1; 0] s) = scratch_of 10
  /\ kinds (run_with (br_read_exact 12) true (length s + 1) None false (Run.reader_of 10 [1; 0] s)) = ([0; 0], true)
  /\ kinds (run_with (br_read_exact 12) true (length s + 1) None false (Run.reader_of 9 [1; 0] s)) = ([0; 4], true).
Proof. vm_compute. repeat split; reflexivity. Qed.

(* ---------- the shortcut of the differential run for streams longer than 10 MiB (Model/Run.v, op 43) ----------
   Run.big_stream sh nrec l tail is nrec copies of one record (optional storage header DLT\x01 + 12 zero bytes,
   header type 0x20, counter 0, LEN = l big-endian, l - 4 zero bytes) followed by tail; Run.big_spec_run computes
   the outcome of ONE record, repeats it nrec times (once, if it is a panic) and appends the run of the tail.
   That IS spec_run on the whole stream, for every record count, LEN in 4 .. 65535, tail, filter and storage mode. *)
From DltV.Proofs Require BigStream.
Theorem c07b_big_stream : forall sh nrec l tail f,
  4 <= l -> l <= 65535 ->
  ReaderSpec.spec_run (Run.big_stream sh nrec l tail) f sh = Run.big_spec_run sh nrec l tail f.
Proof. exact DltV.Proofs.BigStream.big_stream_sound. Qed.
Check c07b_big_stream : forall sh nrec l tail f,
  4 <= l -> l <= 65535 ->
  ReaderSpec.spec_run (Run.big_stream sh nrec l tail) f sh = Run.big_spec_run sh nrec l tail f.
Print Assumptions c07b_big_stream.

(* three records of LEN 8 and a tail holding one small message, both storage modes: four messages either way;
   with a tail cut off inside its message: three messages and the Unrecoverable error *)
Example c07b_example_big_stream :
  4 <= 8 /\ 8 <= 65535
  /\ Run.big_stream false 3 8 ex_m1
     = [x20; x00; x00; x08; x00; x00; x00; x00] ++ [x20; x00; x00; x08; x00; x00; x00; x00]
       ++ [x20; x00; x00; x08; x00; x00; x00; x00] ++ ex_m1
  /\ len (Run.big_stream true 3 8 (ex_sh ++ ex_m1)) = 96
  /\ ReaderSpec.spec_run (Run.big_stream false 3 8 ex_m1) None false = Run.big_spec_run false 3 8 ex_m1 None
  /\ map outcome_kind (ReaderSpec.spec_run (Run.big_stream false 3 8 ex_m1) None false) = [0; 0; 0; 0]
  /\ map outcome_kind (Run.big_spec_run false 3 8 ex_m1 None) = [0; 0; 0; 0]
  /\ ReaderSpec.spec_run (Run.big_stream true 3 8 (ex_sh ++ ex_m1)) None true
     = Run.big_spec_run true 3 8 (ex_sh ++ ex_m1) None
  /\ map outcome_kind (ReaderSpec.spec_run (Run.big_stream true 3 8 (ex_sh ++ ex_m1)) None true) = [0; 0; 0; 0]
  /\ map outcome_kind (Run.big_spec_run true 3 8 (ex_sh ++ ex_m1) None) = [0; 0; 0; 0]
  /\ map outcome_kind (ReaderSpec.spec_run (Run.big_stream false 3 8 (firstn 6 ex_m1)) None false) = [0; 0; 0; 3]
  /\ map outcome_kind (Run.big_spec_run false 3 8 (firstn 6 ex_m1) None) = [0; 0; 0; 3]
  /\ map outcome_kind (ReaderSpec.spec_run (Run.big_stream true 0 8 (ex_sh ++ ex_m1)) None true) = [0]
  /\ map outcome_kind (Run.big_spec_run true 0 8 (ex_sh ++ ex_m1) None) = [0].
Proof. vm_compute. repeat split; try reflexivity; discriminate. Qed.

(* ... and with one record of another length in front *)
Theorem c07b_big_stream2 : forall sh l1 nrec l tail f,
  4 <= l1 -> l1 <= 65535 -> 4 <= l -> l <= 65535 ->
  ReaderSpec.spec_run (Run.big_stream sh 1 l1 (Run.big_stream sh nrec l tail)) f sh
  = Run.big_spec_run2 sh l1 nrec l tail f.
Proof. exact DltV.Proofs.BigStream.big_stream2_sound. Qed.
Check c07b_big_stream2 : forall sh l1 nrec l tail f,
  4 <= l1 -> l1 <= 65535 -> 4 <= l -> l <= 65535 ->
  ReaderSpec.spec_run (Run.big_stream sh 1 l1 (Run.big_stream sh nrec l tail)) f sh
  = Run.big_spec_run2 sh l1 nrec l tail f.
Print Assumptions c07b_big_stream2.
