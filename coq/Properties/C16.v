(* C16 — every message the parser returns is representable by the writer.
   Key lemma of C16: if the re-serialisation of a parsed message has the length its own header
   declares, the message is well-formed ([wf_message], Spec/WellFormed.v — the domain of the
   round-trip theorem C01) and carries a storage header exactly when one was asked for.
   The composed statement [c16_stable] follows with C01; [c16_from_roundtrip] takes the round trip
   as an explicit premise, so that it can be read without the proof of C01. *)
From DltV.Model Require Import Bytes Nom Dlt Parse.
From DltV.Spec Require Import WellFormed.
From DltV.Proofs Require Import ParsedWf.
Open Scope N_scope.

Theorem c16_parsed_wf : forall bs f sh m rest,
  dlt_message bs f sh = POk (Item m) rest ->
  len (message_bytes m) = (if sh then 16 else 0) + overall_length (m_header m) ->
  wf_message m = true /\ has_storage m = sh.
Proof. exact parsed_wf. Qed.
Check c16_parsed_wf : forall bs f sh m rest,
  dlt_message bs f sh = POk (Item m) rest ->
  len (message_bytes m) = (if sh then 16 else 0) + overall_length (m_header m) ->
  wf_message m = true /\ has_storage m = sh.
Print Assumptions c16_parsed_wf.

(* C16 from the C01 round trip, the latter as an explicit premise *)
Theorem c16_from_roundtrip :
  (forall m rest, wf_message m = true ->
     dlt_message (message_bytes m ++ rest) None (has_storage m) = POk (Item m) rest) ->
  forall bs f sh m rest,
  dlt_message bs f sh = POk (Item m) rest ->
  len (message_bytes m) = (if sh then 16 else 0) + overall_length (m_header m) ->
  dlt_message (message_bytes m) None sh = POk (Item m) [].
Proof.
  intros RT bs f sh m rest H Hlen. destruct (parsed_wf _ _ _ _ _ H Hlen) as [W <-].
  rewrite <- (app_nil_r (message_bytes m)) at 1. apply RT, W.
Qed.
Check c16_from_roundtrip :
  (forall m rest, wf_message m = true ->
     dlt_message (message_bytes m ++ rest) None (has_storage m) = POk (Item m) rest) ->
  forall bs f sh m rest,
  dlt_message bs f sh = POk (Item m) rest ->
  len (message_bytes m) = (if sh then 16 else 0) + overall_length (m_header m) ->
  dlt_message (message_bytes m) None sh = POk (Item m) [].
Print Assumptions c16_from_roundtrip.

(* ---------- non-vacuity ---------- *)
(* a dialect message: NUL-padded ids, bool with TYLE = 1, reserved string coding 2, followed by
   two bytes of the next message: both hypotheses hold, the parsed message is well-formed and its
   re-serialisation (which differs from the input: TYLE bit dropped) parses back to itself *)
Definition c16_dialect : list byte :=
  [x21; x00; x00; x13; x41; x01; x41; x00; x00; x00; x43; x00; x00; x00;
   x11; x00; x01; x00; x01; xee; xee].
Example c16_example_dialect :
  exists m, dlt_message c16_dialect None false = POk (Item m) [xee; xee] /\
    len (message_bytes m) = 0 + overall_length (m_header m) /\
    message_bytes m <> firstn 19 c16_dialect /\
    wf_message m = true /\
    dlt_message (message_bytes m) None false = POk (Item m) [].
Proof.
  eexists. split; [vm_compute; reflexivity|]. split; [vm_compute; reflexivity|].
  split; [vm_compute; discriminate|]. split; vm_compute; reflexivity.
Qed.

(* junk, storage header, non-verbose message without extended header *)
Definition c16_storage : list byte :=
  [x99; x44; x4c; x54; x01; x01; x00; x00; x00; x02; x00; x00; x00; x45; x00; xff; x31;
   x20; x07; x00; x0a; x01; x02; x03; x04; xaa; xbb; x77].
Example c16_example_storage :
  exists m, dlt_message c16_storage None true = POk (Item m) [x77] /\
    len (message_bytes m) = 16 + overall_length (m_header m) /\
    wf_message m = true /\ has_storage m = true /\
    dlt_message (message_bytes m) None true = POk (Item m) [].
Proof. eexists. repeat split; vm_compute; reflexivity. Qed.

(* network trace with two raw arguments: hypotheses hold *)
Definition c16_nw_ok : list byte :=
  [x21; x00; x00; x1c; x25; x02; x41; x00; x00; x00; x43; x00; x00; x00;
   x00; x04; x00; x00; x01; x00; xaa;   x00; x04; x00; x00; x01; x00; xbb].
Example c16_example_network :
  exists m, dlt_message c16_nw_ok None false = POk (Item m) [] /\
    len (message_bytes m) = 0 + overall_length (m_header m) /\
    wf_message m = true /\ m_payload m = PNetworkTrace [[xaa]; [xbb]].
Proof. eexists. repeat split; vm_compute; reflexivity. Qed.

(* the length hypothesis cannot be dropped: a network-trace message whose second argument is a
   bool is returned with that argument silently dropped (NOAR = 2, one slice); it is not
   well-formed, its re-serialisation is 5 bytes shorter than its header declares and does not
   parse back *)
Definition c16_nw_dropped : list byte :=
  [x21; x00; x00; x1a; x25; x02; x41; x00; x00; x00; x43; x00; x00; x00;
   x00; x04; x00; x00; x01; x00; xaa;   x10; x00; x00; x00; x01].
Example c16_length_hypothesis_needed :
  exists m, dlt_message c16_nw_dropped None false = POk (Item m) [] /\
    len (message_bytes m) = 21 /\ overall_length (m_header m) = 26 /\
    wf_message m = false /\
    dlt_message (message_bytes m) None false = PIncomplete (Some 5).
Proof. eexists. repeat split; vm_compute; reflexivity. Qed.

(* ---------- the property itself: the premise of [c16_from_roundtrip] is C01 ---------- *)
From DltV.Proofs Require Roundtrip.

Theorem c16_stable : forall bs f sh m rest,
  dlt_message bs f sh = POk (Item m) rest ->
  len (message_bytes m) = (if sh then 16 else 0) + overall_length (m_header m) ->
  dlt_message (message_bytes m) None sh = POk (Item m) [].
Proof. exact (c16_from_roundtrip Roundtrip.message_roundtrip). Qed.
Check c16_stable : forall bs f sh m rest,
  dlt_message bs f sh = POk (Item m) rest ->
  len (message_bytes m) = (if sh then 16 else 0) + overall_length (m_header m) ->
  dlt_message (message_bytes m) None sh = POk (Item m) [].
Print Assumptions c16_stable.

(* "serialising again reproduces the same bytes": whatever the second parse returns re-serialises
   to the bytes it was parsed from *)
Theorem c16_bytes_stable : forall bs f sh m rest m' rest',
  dlt_message bs f sh = POk (Item m) rest ->
  len (message_bytes m) = (if sh then 16 else 0) + overall_length (m_header m) ->
  dlt_message (message_bytes m) None sh = POk (Item m') rest' ->
  m' = m /\ rest' = [] /\ message_bytes m' = message_bytes m.
Proof.
  intros bs f sh m rest m' rest' H L H2.
  rewrite (c16_stable bs f sh m rest H L) in H2. injection H2 as <- <-. repeat split.
Qed.
Check c16_bytes_stable : forall bs f sh m rest m' rest',
  dlt_message bs f sh = POk (Item m) rest ->
  len (message_bytes m) = (if sh then 16 else 0) + overall_length (m_header m) ->
  dlt_message (message_bytes m) None sh = POk (Item m') rest' ->
  m' = m /\ rest' = [] /\ message_bytes m' = message_bytes m.
Print Assumptions c16_bytes_stable.
