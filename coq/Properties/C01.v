(* C01 — "For every well-formed DLT message value (any payload kind: verbose arguments of every type,
   non-verbose, control, network trace; either byte order; any combination of optional header fields;
   with or without storage header) parsing its serialised bytes yields a message equal field-for-field
   (floats bit-for-bit) to the original, and the unconsumed remainder is exactly whatever bytes
   followed the message.  Nothing that follows the message in the buffer influences the result."

   [message_bytes] (Model/Dlt.v) is Message::as_bytes, [dlt_message] (Model/Parse.v) is
   dlt_message(input, filter, with_storage_header); [wf_message] (Spec/WellFormed.v) is the
   quantifier of the property; [has_storage m] says whether m carries a storage header (the mode
   the parser is called in).  [rest] is universally quantified: it is returned unchanged and does
   not influence the message.  f32/f64 values are their bit patterns in the model, so equality of
   messages is bit-for-bit. *)
From Coq Require Import Lia.
From DltV.Model Require Import Bytes Nom Dlt Parse.
From DltV.Spec Require Import WellFormed.
From DltV.Proofs Require Import Stable ArgsRoundtrip Roundtrip.
Open Scope N_scope.

Theorem c01_roundtrip : forall m rest, wf_message m = true ->
  dlt_message (message_bytes m ++ rest) None (has_storage m) = POk (Item m) rest.
Proof. exact message_roundtrip. Qed.
Check c01_roundtrip : forall m rest, wf_message m = true ->
  dlt_message (message_bytes m ++ rest) None (has_storage m) = POk (Item m) rest.
Print Assumptions c01_roundtrip.

(* pins has_storage *)
Theorem c01_has_storage : forall m,
  has_storage m = match m_storage m with Some _ => true | None => false end.
Proof. reflexivity. Qed.
Check c01_has_storage : forall m,
  has_storage m = match m_storage m with Some _ => true | None => false end.
Print Assumptions c01_has_storage.

(* with any filter: the message comes back iff the filter keeps it; otherwise it is skipped as a
   whole and the remainder is the same *)
Theorem c01_roundtrip_filter : forall m f rest, wf_message m = true ->
  dlt_message (message_bytes m ++ rest) f (has_storage m) =
  if filtered_out (m_ext m) f (h_ecu (m_header m))
  then POk (FilteredOut (h_payload_length (m_header m))) rest
  else POk (Item m) rest.
Proof. exact message_roundtrip_filter. Qed.
Check c01_roundtrip_filter : forall m f rest, wf_message m = true ->
  dlt_message (message_bytes m ++ rest) f (has_storage m) =
  if filtered_out (m_ext m) f (h_ecu (m_header m))
  then POk (FilteredOut (h_payload_length (m_header m))) rest
  else POk (Item m) rest.
Print Assumptions c01_roundtrip_filter.

(* the debug-build overflow panics of the writer (u16 `len + 1`, overall_length) do not fire *)
Theorem c01_no_overflow : forall m, wf_message m = true -> message_bytes_overflows m = false.
Proof.
  intros m H. apply Lengths.wf_message_inv in H as [_ W]. unfold message_bytes_overflows.
  apply orb_false_iff. split.
  - unfold overall_length_overflows. pose proof (Lengths.wb_len _ _ _ W). apply N.leb_gt. lia.
  - pose proof (Lengths.wb_kind _ _ _ W) as K. destruct (m_payload m) as [args| | |]; try reflexivity.
    cbn [payload_bytes_overflows]. destruct (m_ext m) as [x|]; [|discriminate K].
    cbn [wf_kind] in K. apply andb_true_iff in K as [_ K].
    clear W. induction args as [|a args IH]; [reflexivity|]. cbn [forallb existsb] in *.
    apply andb_true_iff in K as [K1 K2]. now rewrite (arg_no_overflow a K1), (IH K2).
Qed.
Check c01_no_overflow : forall m, wf_message m = true -> message_bytes_overflows m = false.
Print Assumptions c01_no_overflow.

(* every argument on its own, either byte order: read back with any continuation, and every proper
   prefix of its bytes is Incomplete *)
Theorem c01_argument : forall e a, wf_arg a = true -> stable (dlt_argument e) (arg_bytes e a) a.
Proof. exact stable_argument. Qed.
Check c01_argument : forall e a, wf_arg a = true -> stable (dlt_argument e) (arg_bytes e a) a.
Print Assumptions c01_argument.

(* ---------- non-vacuity: concrete well-formed messages, built by Message::new ---------- *)
Definition sA : list byte := [x41; x42].                 (* "AB" *)
Definition sU : list byte := [xc3; xa4; x6d].            (* "äm" *)
Definition ex_args : list argument :=
  [ mkArg (mkTI KBool SAscii true false) (Some sA) None None (VBool 1);
    mkArg (mkTI KBool SAscii false false) None None None (VBool 0);
    mkArg (mkTI (KUnsigned BL32) SAscii true false) (Some sA) (Some sU) None (VU32 4000000000);
    mkArg (mkTI (KUnsigned BL8) SAscii false false) None None None (VU8 255);
    mkArg (mkTI (KUnsigned BL128) SAscii false false) None None None (VU128 (2 ^ 127 + 5));
    mkArg (mkTI (KSigned BL16) SAscii false true) None None None (VI16 (-2)%Z);
    mkArg (mkTI (KSigned BL8) SAscii false false) None None None (VI8 (-128)%Z);
    mkArg (mkTI (KSigned BL64) SAscii true false) (Some []) (Some []) None (VI64 (-(2 ^ 63))%Z);
    mkArg (mkTI (KSignedFixed W32) SAscii false false) None None (Some (mkFP 1065353216 (FI32 (-7)%Z))) (VI32 (-100)%Z);
    mkArg (mkTI (KUnsignedFixed W64) SAscii true false) (Some sA) (Some sA) (Some (mkFP 1056964608 (FI64 12345678901%Z))) (VU64 18446744073709551615);
    mkArg (mkTI (KFloat W32) SAscii false false) None None None (VF32 2143289344);      (* a NaN *)
    mkArg (mkTI (KFloat W64) SAscii true false) (Some sU) (Some sA) None (VF64 13830554455654793216);
    mkArg (mkTI KString SUtf8 true false) (Some sA) None None (VString sU);
    mkArg (mkTI KString (SReserved 5) false false) None None None (VString []);
    mkArg (mkTI KRaw SAscii true false) (Some sA) None None (VRaw [x00; xff; x00]);
    mkArg (mkTI KRaw SAscii false false) None None None (VRaw []) ].

Definition ex_sh : storage_header := mkSH (mkTS 1700000000 999999) [x45; x43; x55].
Definition ex_msg (e : endian) (p : payload) (mt : message_type) (sh : option storage_header) : message :=
  message_new (mkCfg 1 200 e (Some [x45; x43; x55; x31]) (Some 4294967295) (Some 77) p
                 (Some (mkExtCfg mt [x41; x50; x50] [x43; x54; x58; x31]))) sh.
(* Message::new always sets verbose = false for non-verbose/control payloads *)
Definition ex_nonverbose_noext (e : endian) : message :=
  message_new (mkCfg 7 0 e None None None (PNonVerbose 3735928559 [x01; x02; x03]) None) None.

(* hypothesis satisfied, and the conclusion re-checked by evaluation (message identical, remainder
   identical, here a remainder that starts like another storage header) *)
Definition rt (m : message) : Prop :=
  wf_message m = true /\
  dlt_message (message_bytes m ++ [xee; x44; x4c; x54; x01]) None (has_storage m)
  = POk (Item m) [xee; x44; x4c; x54; x01].

Example c01_ex_verbose_le : rt (ex_msg LE (PVerbose ex_args) (MLog Info) (Some ex_sh)).
Proof. split; vm_compute; reflexivity. Qed.
Example c01_ex_verbose_be : rt (ex_msg BE (PVerbose ex_args) (MAppTrace AState) None).
Proof. split; vm_compute; reflexivity. Qed.
Example c01_ex_nonverbose_le : rt (ex_msg LE (PNonVerbose 4294967295 []) (MLog (LInvalid 9)) None).
Proof. split; vm_compute; reflexivity. Qed.
Example c01_ex_nonverbose_be : rt (ex_msg BE (PNonVerbose 17 [x01; x02]) (MUnknown 5 3) (Some ex_sh)).
Proof. split; vm_compute; reflexivity. Qed.
Example c01_ex_nonverbose_noext_le : rt (ex_nonverbose_noext LE).
Proof. split; vm_compute; reflexivity. Qed.
Example c01_ex_nonverbose_noext_be : rt (ex_nonverbose_noext BE).
Proof. split; vm_compute; reflexivity. Qed.
Example c01_ex_control_le : rt (ex_msg LE (PControl CResponse [x00; x01]) (MControl CResponse) (Some ex_sh)).
Proof. split; vm_compute; reflexivity. Qed.
Example c01_ex_control_be : rt (ex_msg BE (PControl (CUnknown 200) []) (MControl (CUnknown 7)) None).
Proof. split; vm_compute; reflexivity. Qed.
Example c01_ex_nwtrace_le : rt (ex_msg LE (PNetworkTrace [[x01; x02]; []; [xff]]) (MNwTrace NCan) (Some ex_sh)).
Proof. split; vm_compute; reflexivity. Qed.
Example c01_ex_nwtrace_be : rt (ex_msg BE (PNetworkTrace [[x01; x02]; []; [xff]]) (MNwTrace (NUserDefined 9)) None).
Proof. split; vm_compute; reflexivity. Qed.

