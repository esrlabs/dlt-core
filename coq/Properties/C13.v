(* C13 — "Given the signal types of a non-verbose message (bool, signed and unsigned integers of
   8 to 128 bits, 32/64-bit floats, strings, raw data) and its payload bytes in a stated byte
   order, the constructed arguments are one per type, in order, each carrying its type and the
   value decoded from the next field of the payload (strings and raw data preceded by a 16-bit
   length), ignoring trailing bytes.  If the payload is too short for the listed types or a string
   is not valid UTF-8 an error is returned, and no input causes a panic."

   [construct_arguments] (Model/Parse.v) is the model of parse.rs:1027-1232 (None = Err).
   [spec_construct] (Spec/NonVerbose.v, part 1) is the field-by-field decoder: cut the next field
   off the front of the remaining bytes — 1 byte bool; 1/2/4/8/16-byte unsigned or two's-complement
   integer in the stated byte order (for one byte the order is immaterial, the implementation
   reads be_u8/be_i8); 4/8-byte float kept as its bit pattern; u16 length + bytes for string
   (must be valid UTF-8) and raw.  [c13_refines] says the implementation computes exactly that
   function; the other theorems are consequences that can be read without the decoder:
     [args_bytes bo args]  the packed encoding of the values of args (Spec/NonVerbose.v, part 2),
     [args_size args]      its length,
     [plain_argument a]    no name, no unit, no fixed point, value of the variant and range that
                           the kind of a's type announces (strings valid UTF-8, < 65536 bytes). *)
From Coq Require Import Lia ZifyBool ZifyN ZifyNat.
From DltV.Model Require Import Bytes RustInt Utf8 Nom Dlt Parse.
From DltV.Spec Require Import NonVerbose.
From DltV.Proofs Require Import BytesBasics NonVerboseProofs.
Open Scope N_scope.

Theorem c13_refines : forall bo tys data,
  construct_arguments bo tys data = spec_construct bo tys data.
Proof. exact construct_refines. Qed.
Check c13_refines : forall bo tys data,
  construct_arguments bo tys data = spec_construct bo tys data.
Print Assumptions c13_refines.

(* exact characterisation of success: the payload starts with the packed encoding of the result,
   the result carries the requested types in order and consists of plain arguments *)
Theorem c13_characterised : forall bo tys d args,
  construct_arguments bo tys d = Some args <->
  (exists rest, d = args_bytes bo args ++ rest) /\ map a_ti args = tys /\ Forall plain_argument args.
Proof. exact construct_characterised. Qed.
Check c13_characterised : forall bo tys d args,
  construct_arguments bo tys d = Some args <->
  (exists rest, d = args_bytes bo args ++ rest) /\ map a_ti args = tys /\ Forall plain_argument args.
Print Assumptions c13_characterised.

(* one argument per type, in order, carrying that type, no name/unit/fixed point, value of the
   announced kind *)
Theorem c13_shape : forall bo tys d args,
  construct_arguments bo tys d = Some args ->
  length args = length tys /\ map a_ti args = tys /\ Forall plain_argument args.
Proof.
  intros bo tys d args H. apply c13_characterised in H as (_ & Hm & Hf).
  split; [|now split]. rewrite <- Hm. now rewrite map_length.
Qed.
Check c13_shape : forall bo tys d args,
  construct_arguments bo tys d = Some args ->
  length args = length tys /\ map a_ti args = tys /\ Forall plain_argument args.
Print Assumptions c13_shape.

(* trailing bytes are ignored *)
Theorem c13_trailing : forall bo tys d args,
  construct_arguments bo tys d = Some args ->
  forall extra, construct_arguments bo tys (d ++ extra) = Some args.
Proof.
  intros bo tys d args H extra. apply c13_characterised in H as ((r & ->) & Hm & Hf).
  apply c13_characterised. split; [|now split]. exists (r ++ extra). now rewrite app_assoc.
Qed.
Check c13_trailing : forall bo tys d args,
  construct_arguments bo tys d = Some args ->
  forall extra, construct_arguments bo tys (d ++ extra) = Some args.
Print Assumptions c13_trailing.

(* the bytes consumed are exactly the first [args_size args] bytes of the payload: they are the
   packed encoding of the result and suffice to construct it *)
Theorem c13_consumed : forall bo tys d args,
  construct_arguments bo tys d = Some args ->
  args_size args <= len d /\
  firstn (N.to_nat (args_size args)) d = args_bytes bo args /\
  construct_arguments bo tys (firstn (N.to_nat (args_size args)) d) = Some args.
Proof.
  intros bo tys d args H. apply c13_characterised in H as ((r & ->) & Hm & Hf).
  rewrite <- (len_args_bytes bo args), len_app, firstn_len_app.
  split; [lia|]. split; [reflexivity|].
  apply c13_characterised. split; [|now split]. exists []. now rewrite app_nil_r.
Qed.
Check c13_consumed : forall bo tys d args,
  construct_arguments bo tys d = Some args ->
  args_size args <= len d /\
  firstn (N.to_nat (args_size args)) d = args_bytes bo args /\
  construct_arguments bo tys (firstn (N.to_nat (args_size args)) d) = Some args.
Print Assumptions c13_consumed.

(* too short at every position: cutting the payload anywhere inside the consumed bytes is an error *)
Theorem c13_short : forall bo tys d args,
  construct_arguments bo tys d = Some args ->
  forall k, k < args_size args -> construct_arguments bo tys (firstn (N.to_nat k) d) = None.
Proof.
  intros bo tys d args H k Hk.
  destruct (construct_arguments bo tys (firstn (N.to_nat k) d)) as [args'|] eqn:E; [exfalso|reflexivity].
  pose proof (c13_trailing _ _ _ _ E (skipn (N.to_nat k) d)) as E'.
  rewrite firstn_skipn, H in E'. injection E' as ->.
  apply c13_consumed in E as (Hle & _). rewrite len_firstn in Hle. lia.
Qed.
Check c13_short : forall bo tys d args,
  construct_arguments bo tys d = Some args ->
  forall k, k < args_size args -> construct_arguments bo tys (firstn (N.to_nat k) d) = None.
Print Assumptions c13_short.

(* types tys1 decode d1 completely; behind it comes a string field (declared length = length of
   s) whose content is not valid UTF-8: Err, whatever types and bytes follow *)
Theorem c13_utf8 : forall bo tys1 t tys2 d1 args1 s rest,
  construct_arguments bo tys1 d1 = Some args1 -> args_size args1 = len d1 ->
  ti_kind_of t = KString -> len s < 65536 -> valid_utf8 s = false ->
  construct_arguments bo (tys1 ++ t :: tys2) (d1 ++ put_uint bo 2 (len s) ++ s ++ rest) = None.
Proof.
  intros bo tys1 t tys2 d1 args1 s rest H1 Hsz Kt Hl Hv.
  apply c13_characterised in H1 as ((r & Hd) & Hm & Hf).
  assert (Hr : r = []).
  { apply len_0_iff. apply (f_equal len) in Hd. rewrite len_app, len_args_bytes in Hd. lia. }
  subst r. rewrite app_nil_r in Hd. subst d1 tys1.
  rewrite c13_refines. unfold spec_construct.
  rewrite spec_decode_app, spec_decode_complete by exact Hf.
  cbn [spec_decode]. rewrite Kt, spec_string_invalid by assumption. reflexivity.
Qed.
Check c13_utf8 : forall bo tys1 t tys2 d1 args1 s rest,
  construct_arguments bo tys1 d1 = Some args1 -> args_size args1 = len d1 ->
  ti_kind_of t = KString -> len s < 65536 -> valid_utf8 s = false ->
  construct_arguments bo (tys1 ++ t :: tys2) (d1 ++ put_uint bo 2 (len s) ++ s ++ rest) = None.
Print Assumptions c13_utf8.

(* Fixed-point signal types are outside the supported list of the property — and the code refuses
   them on every payload: it hands dlt_fixed_point a slice of 4 resp. 8 bytes, which needs 8 resp.
   12 (parse.rs:1128-1135, 1186-1193). *)
Theorem c13_fixed_point_refused : forall bo tys d t,
  In t tys -> is_fixed_point (ti_kind_of t) = true -> construct_arguments bo tys d = None.
Proof. exact construct_fixed_point_refused. Qed.
Check c13_fixed_point_refused : forall bo tys d t,
  In t tys -> is_fixed_point (ti_kind_of t) = true -> construct_arguments bo tys d = None.
Print Assumptions c13_fixed_point_refused.

(* No panic.  [construct_checked bits] (Spec/NonVerbose.v, part 3) is the transcription of the
   Rust function in which every `&data[a..b]`, `&data[a..]`, `data[i]`, `offset - 1` and every
   usize addition carries its run-time check and yields Panic when the check fails, for a
   [bits]-bit usize.  For every payload that can exist (a slice has at most isize::MAX = 2^(bits-1)-1
   bytes, so len + 65537 <= 2^bits for bits >= 18) it never yields Panic and returns what the
   model returns. *)
Theorem c13_no_panic : forall bits bo tys data,
  len data + 65537 <= 2 ^ bits ->
  construct_checked bits bo tys data = Val (construct_arguments bo tys data).
Proof.
  intros bits bo tys data H. unfold construct_checked, construct_arguments.
  apply construct_from_checked_eq; [lia|exact H].
Qed.
Check c13_no_panic : forall bits bo tys data,
  len data + 65537 <= 2 ^ bits ->
  construct_checked bits bo tys data = Val (construct_arguments bo tys data).
Print Assumptions c13_no_panic.

(* the fact behind it: a successful step moves the offset forward by the size of its field and
   never beyond the end of the data (so every later slice/index starts inside the data), and it
   never produces a fixed point *)
Theorem c13_offsets : forall bo t data off v fp off',
  off <= len data -> construct_one bo t data off = Some (v, fp, off') ->
  off < off' <= len data /\ off' = off + field_size v /\ fp = None.
Proof. exact construct_one_offset. Qed.
Check c13_offsets : forall bo t data off v fp off',
  off <= len data -> construct_one bo t data off = Some (v, fp, off') ->
  off < off' <= len data /\ off' = off + field_size v /\ fp = None.
Print Assumptions c13_offsets.

(* ---------- examples (by evaluation) ---------- *)
Definition ex_ti (k : ti_kind) : type_info := mkTI k SUtf8 false false.
Definition ex_tys : list type_info :=
  [ex_ti KBool; ex_ti (KUnsigned BL16); ex_ti (KSigned BL8); ex_ti KString; ex_ti (KFloat W32);
   ex_ti KRaw; ex_ti (KSigned BL32)].
(* bool 01 | u16 1234 | i8 ff | string len 2 "AB" | f32 3f800000 | raw len 1 aa | i32 fffffffe *)
Definition ex_payload : list byte :=
  [x01; x12; x34; xff; x00; x02; x41; x42; x3f; x80; x00; x00; x00; x01; xaa; xff; xff; xff; xfe].
Definition ex_values : list value :=
  [VBool 1; VU16 4660; VI8 (-1); VString [x41; x42]; VF32 1065353216; VRaw [xaa]; VI32 (-2)].

Example c13_example_decode :
  option_map (map a_value) (construct_arguments BE ex_tys ex_payload) = Some ex_values.
Proof. vm_compute. reflexivity. Qed.

(* the hypotheses of c13_shape/c13_trailing/c13_short/c13_consumed hold for it, all 19 bytes are used *)
Example c13_example_size :
  match construct_arguments BE ex_tys ex_payload with
  | Some args => args_size args = 19 /\ args_bytes BE args = ex_payload
  | None => False
  end.
Proof. vm_compute. split; reflexivity. Qed.

(* ... and the conclusions can be observed: every truncation fails, trailing bytes are ignored *)
Example c13_example_short :
  forallb (fun k => match construct_arguments BE ex_tys (firstn k ex_payload) with None => true | _ => false end)
          (seq 0 19) = true.
Proof. vm_compute. reflexivity. Qed.
Example c13_example_trailing :
  construct_arguments BE ex_tys (ex_payload ++ [x99; x98]) = construct_arguments BE ex_tys ex_payload.
Proof. vm_compute. reflexivity. Qed.

(* little endian: same field boundaries, multi-byte fields read the other way round; the 8-bit
   signed field is the same number *)
Example c13_example_le :
  option_map (map a_value)
    (construct_arguments LE [ex_ti (KUnsigned BL16); ex_ti (KSigned BL8); ex_ti KRaw]
                         [x34; x12; xff; x01; x00; xaa]) =
  Some [VU16 4660; VI8 (-1); VRaw [xaa]].
Proof. vm_compute. reflexivity. Qed.

(* c13_utf8: after a bool and a u16 that use up [01 12 34], a string of declared length 2 with
   bytes c3 28 (invalid) *)
Example c13_example_utf8 :
  let tys1 := [ex_ti KBool; ex_ti (KUnsigned BL16)] in
  let d1 := [x01; x12; x34] in
  let s := [xc3; x28] in
  match construct_arguments BE tys1 d1 with Some args1 => args_size args1 = len d1 | None => False end /\
  len s < 65536 /\ valid_utf8 s = false /\
  construct_arguments BE (tys1 ++ ex_ti KString :: [ex_ti KBool]) (d1 ++ put_uint BE 2 (len s) ++ s ++ [x01]) = None.
Proof. vm_compute. repeat split. Qed.

(* fixed point: refused even with plenty of data *)
Example c13_example_fixed_point :
  construct_arguments BE [ex_ti (KSignedFixed W32)] (repeat x00 64) = None /\
  construct_arguments LE [ex_ti KBool; ex_ti (KUnsignedFixed W64)] (repeat x00 64) = None.
Proof. vm_compute. split; reflexivity. Qed.

(* the instrumented transcription on the example, 64-bit and 32-bit usize *)
Example c13_example_checked :
  construct_checked 64 BE ex_tys ex_payload = Val (construct_arguments BE ex_tys ex_payload) /\
  construct_checked 32 LE ex_tys (firstn 7 ex_payload) = Val None.
Proof. vm_compute. split; reflexivity. Qed.
(* the checks are not vacuous: a slice beyond the data does panic *)
Example c13_example_check_fires : cslice ex_payload 18 20 = Panic /\ cindex ex_payload 19 = Panic.
Proof. vm_compute. split; reflexivity. Qed.

(* a plain argument, and the decoder recovering it from its packed bytes (c13_characterised, <-) *)
Example c13_example_plain :
  let a := mkArg (ex_ti (KSigned BL16)) None None None (VI16 (-300)) in
  plain_argument a /\ args_bytes LE [a] = [xd4; xfe] /\
  construct_arguments LE [ex_ti (KSigned BL16)] [xd4; xfe; x00] = Some [a].
Proof. vm_compute. repeat split. Qed.
