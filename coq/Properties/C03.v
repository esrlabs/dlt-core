(* C03 — "No byte sequence can crash the slice parsers or the use of what they return."

   [PPanic] is the model's outcome for a Rust panic (checked subtraction, slice range) in
   Model/Parse.v; [forward_to_next_storage_header] and [construct_arguments] return [option]
   (value or error) — their model types have no panic outcome, every slice they take being
   guarded by an explicit length check written out in the model.
   The serialiser (Model/Dlt.v) computes the release-build result; its debug-build overflow panics
   are the boolean predicates [message_bytes_overflows] (u16 header-length sum, and every
   `len as u16 + 1` of every argument) and [arg_bytes_overflows]; [arg_valid] is Argument::valid.

   [args_of m]    = the argument list of a verbose payload ([] for the other payload kinds),
   [slices_of m]  = the slices of a network-trace payload ([] otherwise),
   [arg_texts a]  = name, unit and string/raw value of [a] (those that are present),
   [texts_within a n] = every text of [a] has  len + 6 <= n,
   [splits i rest n]  = i is n bytes followed by rest. *)
From Coq Require Import Lia.
From DltV.Model Require Import Bytes Utf8 Nom Dlt Parse.
From DltV.Proofs Require Import ParseLemmas Usable.
From DltV.Proofs Require Headers ArgsRoundtrip.
Open Scope N_scope.

(* ---- every slice-level entry point returns a value or an error ---- *)
Theorem c03_parsers_total : forall bs f sh size,
  dlt_message bs f sh <> PPanic /\ dlt_consume_msg bs <> PPanic /\
  skip_storage_header bs <> PPanic /\ zstring size bs <> PPanic.
Proof.
  intros bs f sh size.
  split; [apply dlt_message_no_panic|]. split; [apply dlt_consume_msg_no_panic|].
  split; [apply skip_storage_header_no_panic | apply ZString.zstring_no_panic].
Qed.
Check c03_parsers_total : forall bs f sh size,
  dlt_message bs f sh <> PPanic /\ dlt_consume_msg bs <> PPanic /\
  skip_storage_header bs <> PPanic /\ zstring size bs <> PPanic.
Print Assumptions c03_parsers_total.

(* ---- every returned message can be re-serialised, and its arguments are valid ---- *)
Theorem c03_results_usable : forall bs f sh m rest,
  dlt_message bs f sh = POk (Item m) rest ->
  message_bytes_overflows m = false /\
  (forall a, In a (args_of m) -> arg_valid a = true /\ arg_bytes_overflows a = false).
Proof.
  intros bs f sh m rest H. apply dlt_message_item_bounds in H as (Hov & _ & Ha & _).
  assert (A : forall a, In a (args_of m) -> arg_valid a = true /\ arg_bytes_overflows a = false).
  { intros a Hin. destruct (Ha a Hin) as (V & B & _). split; [exact V|].
    apply arg_bytes_ok. intros s Hs. specialize (B s Hs). lia. }
  split; [|exact A].
  unfold message_bytes_overflows. rewrite Hov. cbn [orb].
  unfold payload_bytes_overflows. unfold args_of in A. destruct (m_payload m) as [args| | |]; try reflexivity.
  destruct (existsb arg_bytes_overflows args) eqn:E; [|reflexivity].
  apply existsb_exists in E as (a & Hin & Hb). destruct (A a Hin) as [_ Hb']. congruence.
Qed.
Check c03_results_usable : forall bs f sh m rest,
  dlt_message bs f sh = POk (Item m) rest ->
  message_bytes_overflows m = false /\
  (forall a, In a (args_of m) -> arg_valid a = true /\ arg_bytes_overflows a = false).
Print Assumptions c03_results_usable.

(* ---- the bound behind it: byte_len does not overflow, the payload has at most 65531 bytes,
   every text of every argument and every network-trace slice has at most 65515 bytes (so
   `len as u16` is exact and `+ 1` cannot overflow), and Argument::len is below 2^18 ---- *)
Theorem c03_result_bounds : forall bs f sh m rest,
  dlt_message bs f sh = POk (Item m) rest ->
  overall_length_overflows (m_header m) = false /\
  h_payload_length (m_header m) <= 65531 /\
  (forall a, In a (args_of m) ->
     arg_valid a = true /\ (forall s, In s (arg_texts a) -> len s <= 65515) /\ arg_len a < 2 ^ 18) /\
  (forall s, In s (slices_of m) -> len s <= 65515).
Proof. exact dlt_message_item_bounds. Qed.
Check c03_result_bounds : forall bs f sh m rest,
  dlt_message bs f sh = POk (Item m) rest ->
  overall_length_overflows (m_header m) = false /\
  h_payload_length (m_header m) <= 65531 /\
  (forall a, In a (args_of m) ->
     arg_valid a = true /\ (forall s, In s (arg_texts a) -> len s <= 65515) /\ arg_len a < 2 ^ 18) /\
  (forall s, In s (slices_of m) -> len s <= 65515).
Print Assumptions c03_result_bounds.

(* ---- reusable: the texts of a parsed argument lie inside the bytes it consumed ---- *)
Theorem c03_parsed_arg_bounds : forall e i a rest n,
  dlt_argument e i = POk a rest -> splits i rest n ->
  texts_within a n /\ arg_valid a = true.
Proof.
  intros e i a rest n H S. apply ParseInv.dlt_argument_inv in H as (n' & S' & F & V & _).
  rewrite (splits_unique S S'). split; [exact (floor_within _ _ F) | exact V].
Qed.
Check c03_parsed_arg_bounds : forall e i a rest n,
  dlt_argument e i = POk a rest -> splits i rest n ->
  texts_within a n /\ arg_valid a = true.
Print Assumptions c03_parsed_arg_bounds.

(* ---- non-verbose argument construction: the arguments are valid, their texts are slices of
   [data] with a u16 length, and they re-serialise without overflow whenever [data] has at most
   65536 bytes (the payload of a parsed message has at most 65531) ---- *)
Theorem c03_construct_arguments_usable : forall e tys data args,
  construct_arguments e tys data = Some args ->
  forall a, In a args ->
    arg_valid a = true /\
    (forall s, In s (arg_texts a) -> len s + 2 <= len data /\ len s <= 65535) /\
    (len data <= 65536 -> arg_bytes_overflows a = false).
Proof.
  intros e tys data args.
  unfold construct_arguments. intros H a Hin.
  destruct (construct_from_inv _ _ _ _ _ H a Hin) as [V B]. split; [exact V|]. split; [exact B|].
  intros Hd. apply arg_bytes_ok. intros s Hs. destruct (B s Hs). lia.
Qed.
Check c03_construct_arguments_usable : forall e tys data args,
  construct_arguments e tys data = Some args ->
  forall a, In a args ->
    arg_valid a = true /\
    (forall s, In s (arg_texts a) -> len s + 2 <= len data /\ len s <= 65535) /\
    (len data <= 65536 -> arg_bytes_overflows a = false).
Print Assumptions c03_construct_arguments_usable.

(* ================= examples ================= *)

(* A hostile verbose message without storage header: one string argument with variable info whose
   name (size 3) is  'n' FF 'x'  and whose value (size 5) is  'a' 'b' C3 'd' 'e'  — no NUL
   terminator in either, invalid UTF-8 in both.  It parses; the texts are the salvaged prefixes. *)
Definition hostile1 : list byte :=
  [x21; x00; x00; x1e;  x41; x01; x41; x00; x00; x00; x43; x00; x00; x00;
   x00; x8a; x00; x00;  x05; x00;  x03; x00;  x6e; xff; x78;  x61; x62; xc3; x64; x65;  xee].
Example c03_example_hostile :
  exists m, dlt_message hostile1 None false = POk (Item m) [xee] /\
    map arg_texts (args_of m) = [[[x6e]; [x61; x62]]] /\
    message_bytes_overflows m = false /\ forallb arg_valid (args_of m) = true.
Proof. eexists. vm_compute. repeat split. Qed.

(* The same message with the string size field set to 0xFFFF: an error, not a panic and not a
   65535-byte string. *)
Example c03_example_oversized_size_field :
  dlt_message
    [x21; x00; x00; x1e;  x41; x01; x41; x00; x00; x00; x43; x00; x00; x00;
     x00; x8a; x00; x00;  xff; xff;  x03; x00;  x6e; xff; x78;  x61; x62; xc3; x64; x65;  xee]
    None false = PError.
Proof. vm_compute. reflexivity. Qed.

(* With storage header (one garbage byte in front of it), a filter present, network-trace
   message type: the raw argument becomes a slice. *)
Definition hostile2 : list byte :=
  [x00; x44; x4c; x54; x01; x01; x02; x03; x04; x05; x06; x07; x08; x45; x43; x55; x00;
   x21; x00; x00; x16;  x15; x01; x41; x00; x00; x00; x43; x00; x00; x00;
   x00; x04; x00; x00;  x02; x00;  xaa; xbb;  xee].
Example c03_example_storage_filter_nwtrace :
  exists m, dlt_message hostile2 (Some (mkPF (Some Verbose) None None None 0 0)) true = POk (Item m) [xee] /\
    slices_of m = [[xaa; xbb]] /\ message_bytes_overflows m = false.
Proof. eexists. vm_compute. repeat split. Qed.

(* The bound 65515 is attained: LEN = 0xFFFF, extended header, one string argument of size
   65515 without NUL.  (The check is a boolean so that vm_compute decides it.) *)
Definition longest : list byte :=
  [x21; x00; xff; xff;  x41; x01; x41; x00; x00; x00; x43; x00; x00; x00;
   x00; x02; x00; x00;  xeb; xff] ++ repeat x41 (N.to_nat 65515).
Example c03_example_bound_attained :
  match dlt_message longest None false with
  | POk (Item m) [] =>
    match args_of m with
    | [a] => match a_value a with VString s => len s =? 65515 | _ => false end
             && negb (arg_bytes_overflows a) && negb (message_bytes_overflows m)
    | _ => false
    end
  | _ => false
  end = true.
Proof.
  (* the two headers and the type info are read back from their written form; the string is
     65515 ASCII bytes without NUL, which is all the parser needs to know of it *)
  unfold longest. set (s := repeat x41 (N.to_nat 65515)).
  assert (Ls : len s = 65515) by (unfold s; rewrite BytesBasics.len_repeat; apply N2Nat.id).
  assert (As : forall b, In b s -> b = x41) by (intros b Hb; exact (repeat_spec _ _ _ Hb)).
  assert (Vs : valid_utf8 s = true).
  { apply Utf8Lemmas.valid_utf8_ascii, Forall_forall. intros b Hb. now rewrite (As b Hb). }
  assert (Ns : no_nul s = true).
  { unfold no_nul. apply forallb_forall. intros b Hb. rewrite (As b Hb). reflexivity. }
  assert (Os : len_plus1_overflows s = false) by (unfold len_plus1_overflows; rewrite Ls; reflexivity).
  set (h := mkStd 1 LE true 0 None None None 65521). set (x := mkExt true 1 (MLog Info) [x41] [x43]).
  set (t := mkTI KString SAscii false false).
  match goal with |- context [?l ++ s] =>
    change l with (std_header_bytes h ++ ext_header_bytes x ++ ti_bytes LE t ++ put_uint LE 2 65515) end.
  rewrite <- !app_assoc. unfold dlt_message, dlt_message_after. cbn [pbind].
  assert (Hh : overall_length_raw h <= 65535) by (vm_compute; discriminate).
  rewrite (proj1 (Headers.stable_std_header h eq_refl Hh)). cbn [pbind]. cbv zeta.
  change (h_has_ext h) with true. cbv iota.
  rewrite (proj1 (Stable.stable_pmap Some _ _ _ (Headers.stable_ext_header x eq_refl))). cbn [pbind].
  replace (len (std_header_bytes h ++ ext_header_bytes x ++ ti_bytes LE t ++ put_uint LE 2 65515 ++ s))
    with 65535 by (rewrite !BytesBasics.len_app, !Fields.len_put_uint, Ls; reflexivity).
  change (validated_payload_length h 65535) with (VplOk 65521). cbv iota beta.
  change (filtered_out (Some x) None (h_ecu h)) with false. cbv iota.
  unfold dlt_payload. change (e_verbose x) with true. cbv iota.
  rewrite <- (app_nil_r s) at 1.
  rewrite !app_assoc, take_app by (rewrite !BytesBasics.len_app, !Fields.len_put_uint, Ls; reflexivity).
  cbn [pbind]. change (N.to_nat (e_noar x)) with 1%nat. cbn [count]. rewrite <- !app_assoc.
  unfold dlt_argument. rewrite (proj1 (ArgsRoundtrip.stable_type_info LE t eq_refl)). cbn [pbind].
  change (ti_kind_of t) with KString. cbv iota. rewrite Fields.uint_put by reflexivity. cbn [pbind].
  change (ti_var_info t) with false. cbv iota. cbn [pbind].
  pose proof (ZString.zstring_put_nopad s [] Ns Vs) as Z. rewrite app_nil_r, Ls in Z. rewrite Z.
  unfold args_of, message_bytes_overflows, payload_bytes_overflows, arg_bytes_overflows.
  cbn -[s len_plus1_overflows]. rewrite Ls, Os. reflexivity.
Qed.

(* construct_arguments on at most 64 KiB: hypotheses of c03_construct_arguments_usable hold *)
Example c03_example_construct :
  exists args, construct_arguments BE [mkTI KString SUtf8 false false; mkTI KBool SAscii false false]
                 [x00; x02; x68; x69; x01] = Some args /\
    map arg_texts args = [[[x68; x69]]; []] /\ forallb arg_valid args = true.
Proof. eexists. vm_compute. repeat split. Qed.

(* ... and the side condition [len data <= 65536] of c03_construct_arguments_usable cannot be
   dropped: called directly (public API) on 65537 bytes, a string of declared length 0xFFFF yields
   an argument whose `len as u16 + 1` overflows when it is serialised in a debug build.  No
   message returned by dlt_message has such a payload (c03_result_bounds). *)
Example c03_construct_arguments_long_data_overflows :
  option_map (map arg_bytes_overflows)
    (construct_arguments BE [mkTI KString SUtf8 false false] ([xff; xff] ++ repeat x41 (N.to_nat 65535)))
  = Some [true].
Proof.
  (* the length field says 0xFFFF and that many ASCII bytes follow; then `65535 as u16 + 1` overflows *)
  set (s := repeat x41 (N.to_nat 65535)).
  assert (Ls : len s = 65535) by (unfold s; rewrite BytesBasics.len_repeat; apply N2Nat.id).
  assert (Vs : valid_utf8 s = true).
  { apply Utf8Lemmas.valid_utf8_ascii, Forall_forall. intros b Hb. now rewrite (repeat_spec _ _ _ Hb). }
  assert (Es : slice ([xff; xff] ++ s) 2 (2 + 65535) = s).
  { unfold slice. cbn [app N.to_nat Pos.to_nat Pos.iter_op Nat.add skipn]. rewrite <- Ls at 1.
    replace (2 + len s - 2) with (len s) by (rewrite N.add_comm; symmetry; apply N.add_sub).
    rewrite BytesBasics.len_to_nat. apply firstn_all. }
  unfold construct_arguments, construct_from, construct_one. cbn [ti_kind_of].
  change (get_uint BE (slice ([xff; xff] ++ s) 0 (0 + 2))) with 65535.
  change (0 + 2) with 2. rewrite BytesBasics.len_app, Ls, Es, Vs.
  cbn -[s]. unfold len_plus1_overflows. rewrite Ls. reflexivity.
Qed.
