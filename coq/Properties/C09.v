(* C09 — filtering drops exactly the messages that fail the configured criteria.
   All statements are RELATIVE to the unfiltered parse, so they compose with the round trip C01
   (dlt_message (message_bytes m ++ rest) None sh = POk (Item m) rest). *)
From DltV.Model Require Import Bytes Nom Dlt Parse.
From DltV.Spec Require Import FilterSpec.
From DltV.Proofs Require Import FilterProofs.
Open Scope N_scope.

(* [spec_dropped] (Spec/FilterSpec.v) is the sentence of the property on the RAW configuration:
   numeric minimum level, id lists with duplicates, "smaller than the count" by the number of
   DISTINCT ids (length of nodup). *)
Theorem c09_filter : forall bs cfg sh m rest,
  dlt_message bs None sh = POk (Item m) rest ->
  dlt_message bs (Some (process_filter cfg)) sh =
    if spec_dropped cfg m
    then POk (FilteredOut (h_payload_length (m_header m))) rest
    else POk (Item m) rest.
Proof. exact filter_spec. Qed.
Check c09_filter : forall bs cfg sh m rest,
  dlt_message bs None sh = POk (Item m) rest ->
  dlt_message bs (Some (process_filter cfg)) sh =
    if spec_dropped cfg m
    then POk (FilteredOut (h_payload_length (m_header m))) rest
    else POk (Item m) rest.
Print Assumptions c09_filter.

(* converse direction: a filter only ever drops — every message delivered with ANY processed
   configuration (also a hand-built one) is the message of the unfiltered parse, same remainder *)
Theorem c09_filter_only_drops : forall bs pf sh m rest,
  dlt_message bs (Some pf) sh = POk (Item m) rest -> dlt_message bs None sh = POk (Item m) rest.
Proof.
  intros bs pf sh m rest H. apply Consumption.dlt_message_inv in H as (skip & a & st & h & a_std & ext & ah & _ & _ & _ & _ & _ & Eq & H).
  apply Consumption.after_headers_step_inv in H as (_ & p & -> & Ep). rewrite Eq. unfold Consumption.after_headers_step.
  cbn [filtered_out]. now rewrite Ep.
Qed.
Check c09_filter_only_drops : forall bs pf sh m rest,
  dlt_message bs (Some pf) sh = POk (Item m) rest -> dlt_message bs None sh = POk (Item m) rest.
Print Assumptions c09_filter_only_drops.

(* the same for an arbitrary (possibly hand-built) ProcessedDltFilterConfig, in terms of the
   decision procedure of parse.rs *)
Theorem c09_filter_processed : forall bs pf sh m rest,
  dlt_message bs None sh = POk (Item m) rest ->
  dlt_message bs (Some pf) sh =
    if filtered_out (m_ext m) (Some pf) (h_ecu (m_header m))
    then POk (FilteredOut (h_payload_length (m_header m))) rest
    else POk (Item m) rest.
Proof. exact filter_relative. Qed.
Check c09_filter_processed : forall bs pf sh m rest,
  dlt_message bs None sh = POk (Item m) rest ->
  dlt_message bs (Some pf) sh =
    if filtered_out (m_ext m) (Some pf) (h_ecu (m_header m))
    then POk (FilteredOut (h_payload_length (m_header m))) rest
    else POk (Item m) rest.
Print Assumptions c09_filter_processed.

(* message for message over a buffer: [apply_filter cfg (Item m)] is the marker with m's payload length if
   spec_dropped cfg m, else Item m.  The side condition says that the filtered parser does not succeed where
   the unfiltered one stopped (true for an empty or incomplete rest; it can fail to hold on a rest with a
   malformed payload, c09_hyp_needed). *)
Theorem c09_stream : forall cfg fuel bs sh l r,
  parse_all fuel bs None sh = (l, r) ->
  is_ok (dlt_message r (Some (process_filter cfg)) sh) = false ->
  parse_all fuel bs (Some (process_filter cfg)) sh = (map (apply_filter cfg) l, r) /\
  Forall (fun pm => exists m, pm = Item m) l.
Proof. exact filter_stream. Qed.
Check c09_stream : forall cfg fuel bs sh l r,
  parse_all fuel bs None sh = (l, r) ->
  is_ok (dlt_message r (Some (process_filter cfg)) sh) = false ->
  parse_all fuel bs (Some (process_filter cfg)) sh = (map (apply_filter cfg) l, r) /\
  Forall (fun pm => exists m, pm = Item m) l.
Print Assumptions c09_stream.

(* numeric minimum levels outside 1..6 mean no level filtering *)
Theorem c09_levels : forall cfg v,
  fc_min_log_level cfg = Some v -> (v = 0 \/ 7 <= v) -> pf_min_log_level (process_filter cfg) = None.
Proof.
  intros cfg v E H. unfold process_filter. cbn [pf_min_log_level]. rewrite E. now apply u8_to_log_level_none.
Qed.
Check c09_levels : forall cfg v,
  fc_min_log_level cfg = Some v -> (v = 0 \/ 7 <= v) -> pf_min_log_level (process_filter cfg) = None.
Print Assumptions c09_levels.

(* The model has ONE conversion (process_filter, sets = duplicate-free lists).  Both Rust conversions
   build HashSet::from_iter over the same id sequence; what a HashSet exposes to `filtered_out` is
   `contains` and `len`, and these are determined by the raw list: *)
Theorem c09_conversions : forall l,
  (forall x, mem_bytes x (dedup l) = id_in x l) /\ length (dedup l) = distinct_count l /\ NoDup (dedup l).
Proof. exact conversions_agree. Qed.
Check c09_conversions : forall l,
  (forall x, mem_bytes x (dedup l) = id_in x l) /\ length (dedup l) = distinct_count l /\ NoDup (dedup l).
Print Assumptions c09_conversions.

(* hand-built configuration whose minimum level is LogLevel::Invalid(b): the table of dlt.rs:546-556 *)
Theorem c09_invalid_minimum : forall x n min,
  e_mtype x = MLog n ->
  (forall a b, level_number n = Some a -> level_number min = Some b ->
               skip_with_level x min = (b <? a)) /\
  (forall a, level_number n = Some a -> level_number min = None -> skip_with_level x min = true) /\
  (forall b, level_number n = None -> level_number min = Some b -> skip_with_level x min = false) /\
  (forall a b, n = LInvalid a -> min = LInvalid b -> skip_with_level x min = (a <? b)).
Proof.
  intros x n min E. rewrite skip_with_level_table, E. unfold spec_skip_table. repeat split.
  - intros a b -> ->. reflexivity.
  - intros a -> ->. reflexivity.
  - intros b -> ->. reflexivity.
  - intros a b -> ->. reflexivity.
Qed.
Check c09_invalid_minimum : forall x n min,
  e_mtype x = MLog n ->
  (forall a b, level_number n = Some a -> level_number min = Some b ->
               skip_with_level x min = (b <? a)) /\
  (forall a, level_number n = Some a -> level_number min = None -> skip_with_level x min = true) /\
  (forall b, level_number n = None -> level_number min = Some b -> skip_with_level x min = false) /\
  (forall a b, n = LInvalid a -> min = LInvalid b -> skip_with_level x min = (a <? b)).
Print Assumptions c09_invalid_minimum.

(* ---------- non-vacuity ---------- *)
(* example inputs ex_info, ex_invalid_level, ex_ecu, ex_noext and cfg_level: end of Proofs/FilterProofs.v *)
Example c09_hyp_info : exists m, dlt_message ex_info None false = POk (Item m) [xee; xee].
Proof. eexists. vm_compute. reflexivity. Qed.
Example c09_hyp_noext : exists m, dlt_message ex_noext None false = POk (Item m) [xee].
Proof. eexists. vm_compute. reflexivity. Qed.

(* minimum WARN (3): INFO is less severe -> marker with the payload length 9 *)
Example c09_ex_level_drop :
  dlt_message ex_info (Some (process_filter (cfg_level 3))) false = POk (FilteredOut 9) [xee; xee].
Proof. vm_compute. reflexivity. Qed.
(* minimum INFO (4), 0, 7, 255: kept, identical to the unfiltered parse *)
Example c09_ex_level_keep :
  Forall (fun v => dlt_message ex_info (Some (process_filter (cfg_level v))) false
                   = dlt_message ex_info None false) [4; 5; 6; 0; 7; 255].
Proof. repeat (constructor; [vm_compute; reflexivity|]). constructor. Qed.
(* a message with an INVALID level is kept under the strictest valid minimum (FATAL): the sentence says
   "a log message with a VALID level less severe than the minimum" *)
Example c09_ex_invalid_level_kept :
  exists m, dlt_message ex_invalid_level (Some (process_filter (cfg_level 1))) false = POk (Item m) [xee; xee]
            /\ option_map e_mtype (m_ext m) = Some (MLog (LInvalid 9)).
Proof. eexists. split; vm_compute; reflexivity. Qed.
(* id sets, with duplicates in the raw lists *)
Example c09_ex_app_drop :
  dlt_message ex_info (Some (process_filter (mkFC None (Some [[x42]; [x42]]) None None 0 0))) false
  = POk (FilteredOut 9) [xee; xee].
Proof. vm_compute. reflexivity. Qed.
Example c09_ex_ctx_drop :
  dlt_message ex_info (Some (process_filter (mkFC None (Some [[x41]]) None (Some []) 0 0))) false
  = POk (FilteredOut 9) [xee; xee].
Proof. vm_compute. reflexivity. Qed.
Example c09_ex_ids_keep :
  dlt_message ex_info (Some (process_filter (mkFC (Some 4) (Some [[x42]; [x41]; [x41]]) (Some []) (Some [[x43]]) 9 9))) false
  = dlt_message ex_info None false.
Proof. vm_compute. reflexivity. Qed.
(* header ECU id absent: an ECU set (even the empty one) does not drop; present and not in the set: dropped *)
Example c09_ex_ecu_drop :
  dlt_message ex_ecu (Some (process_filter (mkFC None None (Some [[x45]]) None 0 0))) false
  = POk (FilteredOut 9) [xee; xee].
Proof. vm_compute. reflexivity. Qed.
Example c09_ex_ecu_keep :
  dlt_message ex_ecu (Some (process_filter (mkFC None None (Some [[x45]; [x45; x31]]) None 0 0))) false
  = dlt_message ex_ecu None false.
Proof. vm_compute. reflexivity. Qed.
(* no extended header: raw list ["A";"A"] denotes a set of ONE id; count 2 > 1 drops, count 1 keeps *)
Example c09_ex_noext_drop :
  dlt_message ex_noext (Some (process_filter (mkFC None (Some [[x41]; [x41]]) None None 2 0))) false
  = POk (FilteredOut 4) [xee].
Proof. vm_compute. reflexivity. Qed.
Example c09_ex_noext_keep :
  dlt_message ex_noext (Some (process_filter (mkFC (Some 1) (Some [[x41]; [x41]]) (Some []) (Some []) 1 0))) false
  = dlt_message ex_noext None false.
Proof. vm_compute. reflexivity. Qed.
Example c09_ex_levels : pf_min_log_level (process_filter (cfg_level 7)) = None
                        /\ pf_min_log_level (process_filter (cfg_level 6)) = Some Verbose.
Proof. split; reflexivity. Qed.

(* The hypothesis "the unfiltered parse succeeded" of c09_filter is needed: a dropped message's payload
   is skipped, not parsed, so an input whose payload is malformed (type info 0) is an error without a
   filter and a FilteredOut marker with one. *)
Example c09_hyp_needed :
  let bs := [x21; x00; x00; x17; x41; x01; x41; x00; x00; x00; x43; x00; x00; x00;
             x00; x00; x00; x00; x01; x02; x03; x04; x05; xee; xee] in
  dlt_message bs None false = PError /\
  dlt_message bs (Some (process_filter (cfg_level 3))) false = POk (FilteredOut 9) [xee; xee].
Proof. split; vm_compute; reflexivity. Qed.

(* three messages back to back (INFO, invalid level 9, no extended header), minimum WARN, app set {"A"} with
   declared count 1: the first is dropped, the other two are delivered unchanged *)
Example c09_ex_stream :
  let bs := firstn 23 ex_info ++ firstn 23 ex_invalid_level ++ firstn 8 ex_noext in
  let cfg := mkFC (Some 3) (Some [[x41]; [x41]]) None None 1 0 in
  exists m2 m3,
    parse_all 4 bs None false = ([Item (match dlt_message ex_info None false with POk (Item m) _ => m | _ => m2 end); Item m2; Item m3], [])
    /\ is_ok (dlt_message [] (Some (process_filter cfg)) false) = false
    /\ parse_all 4 bs (Some (process_filter cfg)) false = ([FilteredOut 9; Item m2; Item m3], []).
Proof. eexists. eexists. split; [vm_compute; reflexivity|]. split; vm_compute; reflexivity. Qed.
