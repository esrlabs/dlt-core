(* C17 — timestamps built from milliseconds or microseconds denote the same instant. *)
From Coq Require Import Lia ZifyBool ZifyN.
From DltV.Model Require Import Bytes RustInt Dlt.
Open Scope N_scope.
Ltac Zify.zify_post_hook ::= Z.div_mod_to_equations.

Theorem c17_ms : forall ms, ms / 1000 < 2 ^ 32 ->
  exists t, from_ms ms = Val t /\ ts_secs t * 1000000 + ts_micros t = ms * 1000 /\ ts_micros t < 1000000.
Proof.
  intros ms Hg. unfold from_ms, mul_chk, wrap, chk_bind.
  assert (H32 : 2 ^ 32 = 4294967296) by reflexivity. rewrite H32 in *.
  assert (Hm : (ms mod 1000) mod 4294967296 = ms mod 1000) by (apply N.mod_small; lia).
  rewrite Hm.
  destruct (N.ltb_spec (ms mod 1000 * 1000) 4294967296) as [_|Hbad]; [|lia].
  eexists; split; [reflexivity|]. cbn [ts_secs ts_micros].
  rewrite (N.mod_small (ms / 1000)) by lia. lia.
Qed.
Check c17_ms : forall ms, ms / 1000 < 2 ^ 32 ->
  exists t, from_ms ms = Val t /\ ts_secs t * 1000000 + ts_micros t = ms * 1000 /\ ts_micros t < 1000000.
Print Assumptions c17_ms.

Theorem c17_us : forall us, us / 1000000 < 2 ^ 32 ->
  exists t, from_us us = Val t /\ ts_secs t * 1000000 + ts_micros t = us /\ ts_micros t < 1000000.
Proof.
  intros us Hg. unfold from_us, wrap.
  assert (H32 : 2 ^ 32 = 4294967296) by reflexivity. rewrite H32 in *.
  eexists; split; [reflexivity|]. cbn [ts_secs ts_micros].
  rewrite (N.mod_small (us / 1000000)) by lia.
  rewrite (N.mod_small (us mod 1000000)) by lia. lia.
Qed.
Check c17_us : forall us, us / 1000000 < 2 ^ 32 ->
  exists t, from_us us = Val t /\ ts_secs t * 1000000 + ts_micros t = us /\ ts_micros t < 1000000.
Print Assumptions c17_us.

(* the hypotheses are satisfiable by non-trivial inputs, and the guard is sharp *)
Example c17_us_example : from_us 1500000 = Val (mkTS 1 500000) /\ 1500000 / 1000000 < 2 ^ 32.
Proof. split; reflexivity. Qed.
Example c17_ms_example : from_ms 4294967295999 = Val (mkTS 4294967295 999000) /\ 4294967295999 / 1000 < 2 ^ 32.
Proof. split; reflexivity. Qed.
