(* C18 — "For every argument, converting to the real (logical) value never panics; it yields
   nothing unless the argument is a fixed-point kind with fixed-point data and an integer value;
   and whenever the physical value times the quantization (in double precision, truncated toward
   zero) is non-negative and its sum with the offset lies in 0 .. 2^63, the result is exactly
   that sum."

   [to_real_value] (Model/Float.v) is Argument::to_real_value with the `+` of log_v repaired to
   `wrapping_add` (F8); [to_real_value_pinned] is the code with the overflow-checked `+`.
   The statement is TRUE of the repaired code ([c18_no_panic], [c18_none], [c18_some],
   [c18_value]) and FALSE of the code with the checked `+` ([c18_pinned_refuted]:
   value 1000, quantization 1.0, offset -200; [c18_pinned_panic_neg]: with a negative offset
   it panics exactly when the intended result is non-negative).

   Floats: [spec_float] of the standard library (Floats.SpecFloat), binary64 = prec 53, emax 1024.
     v  = [int_to_f64 n]                    `n as f64`, round to nearest even (exact below 2^53: [c18_int_exact])
     q  = [fp_quant_f64 fp]                 the f32 quantization decoded from its bits and widened (exact: [c18_f32_exact])
     p  = [f64_mul v q]                     the double-precision product
     t  = [sf_trunc p]                      its UNSATURATED truncation toward zero ([c18_trunc]); none for NaN/inf
   In [c18_value] the hypothesis  -2^63 <= offset  holds for every i32/i64 offset
   ([c18_offset_range]); the model's offsets are unbounded Z, hence it is stated. *)
From Coq Require Import Floats.SpecFloat.
From Coq Require Import Lia ZifyBool ZifyN.
From DltV.Model Require Import Bytes RustInt Dlt Float.
From DltV.Proofs Require Import RealValue.
Open Scope N_scope.

(* ---------- never panics ---------- *)
Theorem c18_no_panic : forall a, to_real_value a <> Panic.
Proof.
  intros a.
  destruct (real_applicable a) eqn:E.
  - destruct (to_real_value_some a E) as [n [Hn _]]. rewrite Hn. discriminate.
  - rewrite (to_real_value_none a E). discriminate.
Qed.
Check c18_no_panic : forall a, to_real_value a <> Panic.
Print Assumptions c18_no_panic.

(* ---------- yields nothing unless fixed-point kind + fixed-point data + integer value ---------- *)
Theorem c18_none : forall a, real_applicable a = false -> to_real_value a = Val None.
Proof. exact to_real_value_none. Qed.
Check c18_none : forall a, real_applicable a = false -> to_real_value a = Val None.
Print Assumptions c18_none.

(* ... and conversely yields a u64 in that case *)
Theorem c18_some : forall a, real_applicable a = true ->
  exists n, to_real_value a = Val (Some n) /\ n < 2 ^ 64.
Proof. exact to_real_value_some. Qed.
Check c18_some : forall a, real_applicable a = true ->
  exists n, to_real_value a = Val (Some n) /\ n < 2 ^ 64.
Print Assumptions c18_some.

(* [real_applicable] spelled out *)
Theorem c18_applicable : forall a,
  real_applicable a =
  (match ti_kind_of (a_ti a) with KSignedFixed _ | KUnsignedFixed _ => true | _ => false end) &&
  (match a_fp a with Some _ => true | None => false end) &&
  (match a_value a with
   | VI8 _ | VI16 _ | VI32 _ | VI64 _ | VU8 _ | VU16 _ | VU32 _ | VU64 _ => true
   | VBool _ | VU128 _ | VI128 _ | VF32 _ | VF64 _ | VString _ | VRaw _ => false
   end).
Proof. intros a. reflexivity. Qed.
Check c18_applicable : forall a,
  real_applicable a =
  (match ti_kind_of (a_ti a) with KSignedFixed _ | KUnsignedFixed _ => true | _ => false end) &&
  (match a_fp a with Some _ => true | None => false end) &&
  (match a_value a with
   | VI8 _ | VI16 _ | VI32 _ | VI64 _ | VU8 _ | VU16 _ | VU32 _ | VU64 _ => true
   | VBool _ | VU128 _ | VI128 _ | VF32 _ | VF64 _ | VString _ | VRaw _ => false
   end).
Print Assumptions c18_applicable.

(* ---------- the value ---------- *)
Theorem c18_value : forall a fp v t,
  is_fixed_point (ti_kind_of (a_ti a)) = true -> a_fp a = Some fp ->
  value_as_f64 (a_value a) = Some v ->
  sf_trunc (f64_mul v (fp_quant_f64 fp)) = Some t ->
  (- 2 ^ 63 <= fp_off (fp_offset fp))%Z ->
  (0 <= t)%Z -> (0 <= t + fp_off (fp_offset fp) < 2 ^ 63)%Z ->
  to_real_value a = Val (Some (Z.to_N (t + fp_off (fp_offset fp)))).
Proof.
  intros a fp v t Hk Hf Hv Ht Hlo Ht0 Hs.
  rewrite (to_real_value_applicable a fp v Hk Hf Hv).
  unfold scaled_u64, off_u64.
  rewrite (f64_to_u64_trunc _ t Ht) by lia.
  rewrite wrap_sum by assumption. reflexivity.
Qed.
Check c18_value : forall a fp v t,
  is_fixed_point (ti_kind_of (a_ti a)) = true -> a_fp a = Some fp ->
  value_as_f64 (a_value a) = Some v ->
  sf_trunc (f64_mul v (fp_quant_f64 fp)) = Some t ->
  (- 2 ^ 63 <= fp_off (fp_offset fp))%Z ->
  (0 <= t)%Z -> (0 <= t + fp_off (fp_offset fp) < 2 ^ 63)%Z ->
  to_real_value a = Val (Some (Z.to_N (t + fp_off (fp_offset fp)))).
Print Assumptions c18_value.

(* every offset the type can hold (i32 / i64) satisfies the lower bound used above *)
Theorem c18_offset_range : forall o,
  (match o with FI32 z => in_signed 32 z | FI64 z => in_signed 64 z end) = true ->
  (- 2 ^ 63 <= fp_off o)%Z.
Proof.
  intros o.
  unfold in_signed. destruct o as [z|z]; cbn [fp_off]; intros H;
    apply andb_true_iff in H; destruct H as [H _]; apply Z.leb_le in H.
  - change (Z.of_N (2 ^ (32 - 1))) with 2147483648%Z in H. lia.
  - change (Z.of_N (2 ^ (64 - 1))) with 9223372036854775808%Z in H. lia.
Qed.
Check c18_offset_range : forall o,
  (match o with FI32 z => in_signed 32 z | FI64 z => in_signed 64 z end) = true ->
  (- 2 ^ 63 <= fp_off o)%Z.
Print Assumptions c18_offset_range.

(* outside the guard too, the result is the wrapped sum of the saturated cast and the
   sign-extended offset *)
Theorem c18_formula : forall a fp v,
  is_fixed_point (ti_kind_of (a_ti a)) = true -> a_fp a = Some fp ->
  value_as_f64 (a_value a) = Some v ->
  to_real_value a =
  Val (Some ((f64_to_u64 (f64_mul v (fp_quant_f64 fp)) + of_signed 64 (fp_off (fp_offset fp))) mod 2 ^ 64)).
Proof. exact to_real_value_applicable. Qed.
Check c18_formula : forall a fp v,
  is_fixed_point (ti_kind_of (a_ti a)) = true -> a_fp a = Some fp ->
  value_as_f64 (a_value a) = Some v ->
  to_real_value a =
  Val (Some ((f64_to_u64 (f64_mul v (fp_quant_f64 fp)) + of_signed 64 (fp_off (fp_offset fp))) mod 2 ^ 64)).
Print Assumptions c18_formula.

(* ---------- the code with the overflow-checked `+` ---------- *)
Theorem c18_pinned_refuted : exists a, to_real_value_pinned a = Panic.
Proof.
  exists (mkArg (mkTI (KUnsignedFixed W32) SAscii false false) None None
            (Some (mkFP 1065353216 (FI32 (-200)))) (VU32 1000)).
  vm_compute. reflexivity.
Qed.
Check c18_pinned_refuted : exists a, to_real_value_pinned a = Panic.
Print Assumptions c18_pinned_refuted.

Theorem c18_pinned_panic_neg : forall a fp v,
  is_fixed_point (ti_kind_of (a_ti a)) = true -> a_fp a = Some fp ->
  value_as_f64 (a_value a) = Some v ->
  (- 2 ^ 63 <= fp_off (fp_offset fp) < 0)%Z ->
  (to_real_value_pinned a = Panic <->
   (0 <= Z.of_N (f64_to_u64 (f64_mul v (fp_quant_f64 fp))) + fp_off (fp_offset fp))%Z).
Proof.
  intros a fp v Hk Hf Hv Ho. rewrite (to_real_value_pinned_panic_iff a fp v Hk Hf Hv).
  unfold scaled_u64, off_u64. rewrite of_signed64_neg by lia. rewrite pow64_N. lia.
Qed.
Check c18_pinned_panic_neg : forall a fp v,
  is_fixed_point (ti_kind_of (a_ti a)) = true -> a_fp a = Some fp ->
  value_as_f64 (a_value a) = Some v ->
  (- 2 ^ 63 <= fp_off (fp_offset fp) < 0)%Z ->
  (to_real_value_pinned a = Panic <->
   (0 <= Z.of_N (f64_to_u64 (f64_mul v (fp_quant_f64 fp))) + fp_off (fp_offset fp))%Z).
Print Assumptions c18_pinned_panic_neg.

Theorem c18_pinned_agrees : forall a,
  to_real_value_pinned a <> Panic -> to_real_value_pinned a = to_real_value a.
Proof.
  intros a.
  rewrite to_real_value_nf, to_real_value_pinned_nf.
  destruct (is_fixed_point (ti_kind_of (a_ti a))); [|reflexivity].
  unfold log_v_pinned, log_v, add_chk, chk_bind, wrap. rewrite pow64_N.
  destruct (a_fp a) as [fp|]; [|reflexivity].
  destruct (value_as_f64 (a_value a)) as [v|]; [|reflexivity].
  destruct (N.ltb_spec (scaled_u64 fp v + off_u64 fp) 18446744073709551616) as [Hlt|Hge].
  - intros _. rewrite N.mod_small by exact Hlt. reflexivity.
  - intros H. contradiction H. reflexivity.
Qed.
Check c18_pinned_agrees : forall a,
  to_real_value_pinned a <> Panic -> to_real_value_pinned a = to_real_value a.
Print Assumptions c18_pinned_agrees.

(* ---------- what the float terms mean ---------- *)

(* [sf_trunc] of (-1)^s * m * 2^e is  (-1)^s * n  with n = m * 2^e for e >= 0 and
   n * 2^-e <= m < (n + 1) * 2^-e for e < 0: the integer part, toward zero *)
Theorem c18_trunc : forall s m e,
  exists n, sf_trunc (S754_finite s m e) = Some (cond_Zopp s n) /\ (0 <= n)%Z /\
    ((0 <= e)%Z -> n = (Zpos m * 2 ^ e)%Z) /\
    ((e < 0)%Z -> (n * 2 ^ (- e) <= Zpos m < (n + 1) * 2 ^ (- e))%Z).
Proof.
  intros s m e.
  exists (Z.shiftl (Zpos m) e). cbn [sf_trunc]. split; [reflexivity|]. split; [|split].
  - apply Z.shiftl_nonneg. lia.
  - intros He. apply Z.shiftl_mul_pow2. exact He.
  - intros He. rewrite Z.shiftl_div_pow2 by lia.
    assert (Hp : (0 < 2 ^ (- e))%Z) by (apply Z.pow_pos_nonneg; lia).
    pose proof (Z.div_mod (Zpos m) (2 ^ (- e))) as Hdm.
    pose proof (Z.mod_pos_bound (Zpos m) (2 ^ (- e)) Hp) as Hmb.
    nia.
Qed.
Check c18_trunc : forall s m e,
  exists n, sf_trunc (S754_finite s m e) = Some (cond_Zopp s n) /\ (0 <= n)%Z /\
    ((0 <= e)%Z -> n = (Zpos m * 2 ^ e)%Z) /\
    ((e < 0)%Z -> (n * 2 ^ (- e) <= Zpos m < (n + 1) * 2 ^ (- e))%Z).
Print Assumptions c18_trunc.

(* "p finite" = [sf_trunc p] is defined *)
Theorem c18_trunc_none : forall p,
  sf_trunc p = None <-> (p = S754_nan \/ exists s, p = S754_infinity s).
Proof.
  intros p.
  destruct p as [s|s| |s m e]; cbn [sf_trunc]; split; intros H;
    try discriminate H; try reflexivity; try (right; eexists; reflexivity);
    try (left; reflexivity); destruct H as [H|[s' H]]; discriminate H.
Qed.
Check c18_trunc_none : forall p,
  sf_trunc p = None <-> (p = S754_nan \/ exists s, p = S754_infinity s).
Print Assumptions c18_trunc_none.

(* the cast `as u64`: clamp the truncation to 0 .. 2^64-1; NaN and -inf to 0, +inf to 2^64-1 *)
Theorem c18_cast : forall p,
  match sf_trunc p with
  | Some t => f64_to_u64 p = Z.to_N (Z.max 0 (Z.min t (2 ^ 64 - 1)))
  | None => f64_to_u64 p = match p with S754_infinity false => 2 ^ 64 - 1 | _ => 0 end
  end.
Proof.
  intros p.
  unfold f64_to_u64, u64_max. destruct (sf_trunc p) as [t|]; [|reflexivity].
  destruct (Z.ltb_spec t 0) as [Hneg|Hpos].
  - rewrite Z.max_l by lia. reflexivity.
  - destruct (Z.ltb_spec (Z.of_N 18446744073709551615) t) as [Hbig|Hsm].
    + rewrite Z.min_r by lia. reflexivity.
    + rewrite Z.min_l by lia. rewrite Z.max_r by lia. reflexivity.
Qed.
Check c18_cast : forall p,
  match sf_trunc p with
  | Some t => f64_to_u64 p = Z.to_N (Z.max 0 (Z.min t (2 ^ 64 - 1)))
  | None => f64_to_u64 p = match p with S754_infinity false => 2 ^ 64 - 1 | _ => 0 end
  end.
Print Assumptions c18_cast.

(* `n as f64` is exact below 2^53 in magnitude (all 8/16/32-bit values) *)
Theorem c18_int_exact : forall z, (Z.abs z < 2 ^ 53)%Z -> sf_trunc (int_to_f64 z) = Some z.
Proof.
  intros z Hz. unfold int_to_f64, binary_normalize.
  destruct z as [|m|m]; [reflexivity | |]; apply binary_round_int_exact; lia.
Qed.
Check c18_int_exact : forall z, (Z.abs z < 2 ^ 53)%Z -> sf_trunc (int_to_f64 z) = Some z.
Print Assumptions c18_int_exact.

(* `q as f64` for q : f32 is the same number m * 2^e, in canonical binary64 form *)
Theorem c18_f32_exact : forall b s m e,
  f32_of_bits b = S754_finite s m e ->
  exists m' e', f32_to_f64 (f32_of_bits b) = S754_finite s m' e' /\
    (e' <= e)%Z /\ Zpos m' = (Zpos m * 2 ^ (e - e'))%Z /\ bounded prec64 emax64 m' e' = true.
Proof.
  intros b s m e Hb. destruct (f32_of_bits_finite b s m e Hb) as [Hm He].
  rewrite Hb. cbn [f32_to_f64].
  assert (Hd : (Zpos (digits2_pos m) <= 24)%Z) by (apply digits2_le; lia).
  destruct (binary_round_exact s m e) as [m' [e' [Hr [He' [Hm' Hbd]]]]]; [lia|lia|lia|].
  exists m', e'. split; [exact Hr|]. split; [exact He'|]. split; [|exact Hbd].
  rewrite Hm'. apply Z.shiftl_mul_pow2. lia.
Qed.
Check c18_f32_exact : forall b s m e,
  f32_of_bits b = S754_finite s m e ->
  exists m' e', f32_to_f64 (f32_of_bits b) = S754_finite s m' e' /\
    (e' <= e)%Z /\ Zpos m' = (Zpos m * 2 ^ (e - e'))%Z /\ bounded prec64 emax64 m' e' = true.
Print Assumptions c18_f32_exact.

(* ---------- examples (by evaluation) ---------- *)
Definition ex_arg (k : ti_kind) (v : value) (q : N) (o : fp_value) : argument :=
  mkArg (mkTI k SAscii false false) None None (Some (mkFP q o)) v.

(* f32 bit patterns: 0.5 = 0x3F000000, 1.0 = 0x3F800000, -1.0 = 0xBF800000, 0.01 = 0x3C23D70A,
   0.1 = 0x3DCCCCCD, NaN = 0x7FC00000, +inf = 0x7F800000, -inf = 0xFF800000,
   least subnormal = 1, greatest finite = 0x7F7FFFFF *)

(* 1000 * 0.5 - 200 = 300;  1000 * 1.0 - 200 = 800 (the pinned code panics on both) *)
Example c18_ex_half :
  to_real_value (ex_arg (KUnsignedFixed W32) (VU32 1000) 1056964608 (FI32 (-200))) = Val (Some 300) /\
  to_real_value (ex_arg (KUnsignedFixed W32) (VU32 1000) 1065353216 (FI32 (-200))) = Val (Some 800) /\
  to_real_value_pinned (ex_arg (KUnsignedFixed W32) (VU32 1000) 1056964608 (FI32 (-200))) = Panic /\
  to_real_value_pinned (ex_arg (KUnsignedFixed W32) (VU32 1000) 1065353216 (FI32 (-200))) = Panic.
Proof. repeat split; vm_compute; reflexivity. Qed.

(* a non-negative offset does not overflow; a negative offset with a negative intended result
   does not panic either but yields 2^64 - 100 in both variants *)
Example c18_ex_pinned_ok :
  to_real_value_pinned (ex_arg (KUnsignedFixed W32) (VU32 1000) 1065353216 (FI32 200)) = Val (Some 1200) /\
  to_real_value_pinned (ex_arg (KSignedFixed W32) (VI32 100) 1065353216 (FI32 (-200)))
    = Val (Some 18446744073709551516) /\
  to_real_value (ex_arg (KSignedFixed W32) (VI32 100) 1065353216 (FI32 (-200)))
    = Val (Some 18446744073709551516).
Proof. repeat split; vm_compute; reflexivity. Qed.

(* the example of the doc comment in dlt.rs: 7785 * 0.01 - 50 = 27.85 -> 27 *)
Example c18_ex_celsius :
  to_real_value (ex_arg (KSignedFixed W32) (VI32 7785) 1008981770 (FI32 (-50))) = Val (Some 27).
Proof. vm_compute. reflexivity. Qed.

(* the hypotheses of [c18_value] hold for it, with t = 77 *)
Example c18_ex_value_hyps :
  let a := ex_arg (KSignedFixed W32) (VI32 7785) 1008981770 (FI32 (-50)) in
  let fp := mkFP 1008981770 (FI32 (-50)) in
  is_fixed_point (ti_kind_of (a_ti a)) = true /\ a_fp a = Some fp /\
  value_as_f64 (a_value a) = Some (int_to_f64 7785) /\
  sf_trunc (f64_mul (int_to_f64 7785) (fp_quant_f64 fp)) = Some 77%Z /\
  (- 2 ^ 63 <= fp_off (fp_offset fp))%Z /\ (0 <= 77)%Z /\
  (0 <= 77 + fp_off (fp_offset fp) < 2 ^ 63)%Z /\
  Z.to_N (77 + fp_off (fp_offset fp)) = 27.
Proof. vm_compute. repeat split; reflexivity || discriminate. Qed.

(* 0.1f32 is slightly above 0.1:  10 * 0.1f32 = 1.0000000149 -> 1,  3 * 0.1f32 -> 0 *)
Example c18_ex_tenth :
  to_real_value (ex_arg (KUnsignedFixed W64) (VU32 10) 1036831949 (FI64 0)) = Val (Some 1) /\
  to_real_value (ex_arg (KUnsignedFixed W64) (VU32 3) 1036831949 (FI64 0)) = Val (Some 0).
Proof. split; vm_compute; reflexivity. Qed.

(* negative value times negative quantization: -1000 * -0.5 - 200 = 300 *)
Example c18_ex_neg_neg :
  to_real_value (ex_arg (KSignedFixed W64) (VI32 (-1000)) 3204448256 (FI32 (-200))) = Val (Some 300).
Proof. vm_compute. reflexivity. Qed.

(* u64::MAX as f64 = 2^64, which saturates back to u64::MAX; adding 5 wraps to 4 *)
Example c18_ex_u64_max :
  to_real_value (ex_arg (KUnsignedFixed W64) (VU64 18446744073709551615) 1065353216 (FI64 0))
    = Val (Some 18446744073709551615) /\
  to_real_value (ex_arg (KUnsignedFixed W64) (VU64 18446744073709551615) 1065353216 (FI64 5))
    = Val (Some 4).
Proof. split; vm_compute; reflexivity. Qed.

(* i64::MIN: negative products cast to 0; times -1.0 gives 2^63, plus 7 *)
Example c18_ex_i64_min :
  to_real_value (ex_arg (KSignedFixed W64) (VI64 (-9223372036854775808)) 1065353216 (FI64 7)) = Val (Some 7) /\
  to_real_value (ex_arg (KSignedFixed W64) (VI64 (-9223372036854775808)) 3212836864 (FI64 7))
    = Val (Some 9223372036854775815).
Proof. split; vm_compute; reflexivity. Qed.

(* NaN -> 0; +inf -> u64::MAX (then + 7 wraps to 6); -inf -> 0; 0 * inf = NaN -> 0 *)
Example c18_ex_nan_inf :
  to_real_value (ex_arg (KSignedFixed W64) (VI64 5) 2143289344 (FI64 7)) = Val (Some 7) /\
  to_real_value (ex_arg (KSignedFixed W64) (VI64 5) 2139095040 (FI64 7)) = Val (Some 6) /\
  to_real_value (ex_arg (KSignedFixed W64) (VI64 5) 4286578688 (FI64 7)) = Val (Some 7) /\
  to_real_value (ex_arg (KSignedFixed W64) (VI64 0) 2139095040 (FI64 7)) = Val (Some 7).
Proof. repeat split; vm_compute; reflexivity. Qed.

(* least subnormal f32 (2^-149) times u64::MAX truncates to 0; greatest finite f32 saturates *)
Example c18_ex_subnormal_huge :
  to_real_value (ex_arg (KUnsignedFixed W64) (VU64 18446744073709551615) 1 (FI64 7)) = Val (Some 7) /\
  to_real_value (ex_arg (KUnsignedFixed W64) (VU64 18446744073709551615) 2139095039 (FI64 7)) = Val (Some 6).
Proof. split; vm_compute; reflexivity. Qed.

(* `u64 as f64` rounds to nearest, ties to even: 2^53+1 -> 2^53, 2^53+3 -> 2^53+4 *)
Example c18_ex_ties_even :
  to_real_value (ex_arg (KUnsignedFixed W64) (VU64 9007199254740993) 1065353216 (FI64 0))
    = Val (Some 9007199254740992) /\
  to_real_value (ex_arg (KUnsignedFixed W64) (VU64 9007199254740995) 1065353216 (FI64 0))
    = Val (Some 9007199254740996).
Proof. split; vm_compute; reflexivity. Qed.

(* not applicable: 128-bit value, non-fixed-point kind, no fixed-point data, float value *)
Example c18_ex_none :
  to_real_value (ex_arg (KUnsignedFixed W64) (VU128 3) 1065353216 (FI64 0)) = Val None /\
  to_real_value (ex_arg (KSigned BL32) (VI32 3) 1065353216 (FI64 0)) = Val None /\
  to_real_value (mkArg (mkTI (KSignedFixed W32) SAscii false false) None None None (VI32 3)) = Val None /\
  to_real_value (ex_arg (KSignedFixed W32) (VF32 1065353216) 1065353216 (FI32 0)) = Val None /\
  real_applicable (ex_arg (KUnsignedFixed W64) (VU128 3) 1065353216 (FI64 0)) = false /\
  real_applicable (ex_arg (KUnsignedFixed W64) (VU64 3) 1065353216 (FI64 0)) = true.
Proof. repeat split; vm_compute; reflexivity. Qed.

(* the kind's sign and width need not match the value's: still converted *)
Example c18_ex_mismatch :
  to_real_value (ex_arg (KSignedFixed W32) (VU8 200) 1056964608 (FI64 (-1))) = Val (Some 99).
Proof. vm_compute. reflexivity. Qed.
