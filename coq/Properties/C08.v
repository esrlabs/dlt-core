(* C08 — the async reader delivers what the blocking reader delivers, on every poll schedule.
   Model: Model/Stream.v (the REPAIRED stream.rs over futures::io::BufReader + ReadExact). *)
From DltV.Model Require Import Bytes Nom Parse Reader Stream.
From DltV.Spec Require Import ReaderSpec.
From DltV.Proofs Require Import ReaderProofs ReaderMml StreamProofs.
Open Scope N_scope.

Theorem c08_schedule : forall pi s f sh,
  async_run_default pi s f sh = reader_run_default [] s f sh.
Proof. intros. apply async_eq_blocking_any. Qed.
Check c08_schedule : forall pi s f sh,
  async_run_default pi s f sh = reader_run_default [] s f sh.
Print Assumptions c08_schedule.

(* any poll schedule against any blocking schedule *)
Theorem c08_schedule_any : forall pi sigma s f sh,
  async_run_default pi s f sh = reader_run_default sigma s f sh.
Proof. exact async_eq_blocking_any. Qed.
Check c08_schedule_any : forall pi sigma s f sh,
  async_run_default pi s f sh = reader_run_default sigma s f sh.
Print Assumptions c08_schedule_any.

(* directly against the cuts, for every BufReader capacity; the loop ends *)
Theorem c08_spec : forall cap pi s f sh,
  async_run_cap cap pi s f sh = (spec_run s f sh, true).
Proof. intros. apply run_start_default, abr_read_exact_spec. Qed.
Check c08_spec : forall cap pi s f sh,
  async_run_cap cap pi s f sh = (spec_run s f sh, true).
Print Assumptions c08_spec.

Theorem c08_no_panic : forall pi s f sh,
  (forall bs, dlt_message bs f sh <> PPanic) ->
  ~ In OPanic (fst (async_run_default pi s f sh)).
Proof.
  intros pi s f sh Hd. change (async_run_default pi s f sh) with (async_run_cap default_cap pi s f sh).
  rewrite c08_spec. cbn [fst]. apply spec_run_fuel_no_panic, Hd.
Qed.
Check c08_no_panic : forall pi s f sh,
  (forall bs, dlt_message bs f sh <> PPanic) ->
  ~ In OPanic (fst (async_run_default pi s f sh)).
Print Assumptions c08_no_panic.

(* the pre-repair async reader panics as well *)
Theorem c08_pinned_refuted :
  async_run_pinned [0; 1; 0] [x00; x00; x00; x02] None false = ([OPanic], true).
Proof. vm_compute. reflexivity. Qed.
Check c08_pinned_refuted :
  async_run_pinned [0; 1; 0] [x00; x00; x00; x02] None false = ([OPanic], true).
Print Assumptions c08_pinned_refuted.

(* ---------- examples ---------- *)
(* ex_m1, ex_m2, kinds: Spec/ReaderSpec.v *)

(* always ready; pending polls between one-byte chunks; chunk boundaries inside headers *)
Example c08_example_schedules :
  let s := ex_m1 ++ ex_m2 in
  let r := reader_run_default [] s None false in
  async_run_default [] s None false = r
  /\ async_run_default [0; 0; 1; 0; 1; 1; 0; 1; 0; 0; 0; 1; 1; 1; 1; 1; 1; 1; 1; 1; 1; 1; 1; 1; 1] s None false = r
  /\ async_run_default [3; 0; 7; 0; 0; 2] s None false = r
  /\ async_run_cap 3 [0; 2; 0; 7] s None false = r
  /\ kinds r = ([0; 0], true).
Proof. vm_compute. repeat split; reflexivity. Qed.

Example c08_example_short_length_and_truncation :
  kinds (async_run_default [0; 1; 0; 2] (ex_m1 ++ [x00; x00; x00; x02] ++ ex_m2) None false) = ([0; 2; 0], true)
  /\ kinds (async_run_default [0; 4; 0; 1] (ex_m1 ++ firstn 7 ex_m2) None false) = ([0; 3], true)
  /\ kinds (async_run_default [0; 4; 0; 1] (ex_m1 ++ firstn 3 ex_m2) None false) = ([0], true).
Proof. vm_compute. repeat split; reflexivity. Qed.
