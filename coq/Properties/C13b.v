(* C13b — the evaluation shortcut the correspondence run takes for very long type lists is sound: the function
   the extracted model evaluates for op 13 ([Run.construct_for_run]) is [construct_arguments] on every input. *)
From DltV.Model Require Import Bytes RustInt Utf8 Nom Dlt Parse.
From DltV.Model Require Run.
From DltV.Spec Require NonVerbose.
From DltV.Proofs Require Import NonVerboseProofs.
From DltV.Properties Require C13.
Open Scope N_scope.

Theorem c13b_run_shortcut : forall e tys d,
  Run.construct_for_run e tys d = construct_arguments e tys d.
Proof.
  intros e tys d. unfold Run.construct_for_run.
  destruct (2000 <? len tys); [symmetry; apply construct_refines | reflexivity].
Qed.
Check c13b_run_shortcut : forall e tys d,
  Run.construct_for_run e tys d = construct_arguments e tys d.
Print Assumptions c13b_run_shortcut.

(* op 44 (a complete payload followed by gigabytes of zero bytes) is evaluated on the complete payload alone:
   trailing bytes are ignored (this is C13.c13_trailing at the instance the run uses) *)
Theorem c13b_big_trailing : forall e tys d args n,
  construct_arguments e tys d = Some args ->
  construct_arguments e tys (d ++ repeat x00 n) = Some args.
Proof. intros e tys d args n H. exact (C13.c13_trailing e tys d args H (repeat x00 n)). Qed.
Check c13b_big_trailing : forall e tys d args n,
  construct_arguments e tys d = Some args ->
  construct_arguments e tys (d ++ repeat x00 n) = Some args.
Print Assumptions c13b_big_trailing.
