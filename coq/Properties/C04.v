(* C04 — a successful parse consumes exactly the declared message and makes progress. *)
From Coq Require Import Lia.
From DltV.Model Require Import Bytes Nom Dlt Parse.
From DltV.Proofs Require Import ParseLemmas Consumption.
Open Scope N_scope.

(* [located sh bs skip after]: with storage headers, [skip] is the offset of the first DLT\x01
   pattern and [after] is the input behind the 16-byte storage header found there; without,
   skip = 0 and after = bs.  [declared_len after] is the big-endian u16 at offset 2 of the
   standard header, [splits bs rest n] says bs = (n bytes) ++ rest. *)
Theorem c04_message : forall bs f sh pm rest,
  dlt_message bs f sh = POk pm rest ->
  exists skip after, located sh bs skip after /\
    splits bs rest (skip + (if sh then 16 else 0) + declared_len after) /\
    4 <= declared_len after /\ pm <> Invalid /\
    (forall n, pm = FilteredOut n -> n = declared_len after - calculate_all_headers_length (htyp_of after)).
Proof. exact dlt_message_consumes. Qed.
Check c04_message : forall bs f sh pm rest,
  dlt_message bs f sh = POk pm rest ->
  exists skip after, located sh bs skip after /\
    splits bs rest (skip + (if sh then 16 else 0) + declared_len after) /\
    4 <= declared_len after /\ pm <> Invalid /\
    (forall n, pm = FilteredOut n -> n = declared_len after - calculate_all_headers_length (htyp_of after)).
Print Assumptions c04_message.

Theorem c04_consume : forall bs c rest,
  dlt_consume_msg bs = POk (Some c) rest ->
  c = 16 + declared_len (skipn 16 bs) /\ splits bs rest c /\ 0 < c.
Proof.
  intros bs c rest.
  unfold dlt_consume_msg. destruct bs as [|b0 bs0]; [discriminate|]. set (bs := b0 :: bs0). intros H.
  apply pbind_ok_inv in H as (sk & after & Es & H). apply skip_storage_header_inv in Es as [-> S16].
  apply pbind_ok_inv in H as (h & r & Eh & H).
  apply dlt_standard_header_inv in Eh as F. rewrite (std_facts_overall _ _ _ F) in H.
  apply pbind_ok_inv in H as (x & am & Et & H). injection H as <- <-.
  apply take_ok_inv in Et as [St _].
  destruct (splits_firstn S16) as [_ E]. change (N.to_nat 16) with 16%nat in E. rewrite <- E.
  split; [reflexivity|]. split; [exact (splits_trans S16 St) | change (0 < 16 + declared_len after); lia].
Qed.
Check c04_consume : forall bs c rest,
  dlt_consume_msg bs = POk (Some c) rest ->
  c = 16 + declared_len (skipn 16 bs) /\ splits bs rest c /\ 0 < c.
Print Assumptions c04_consume.

Theorem c04_filter_independent : forall bs f1 f2 sh pm1 pm2 rest1 rest2,
  dlt_message bs f1 sh = POk pm1 rest1 -> dlt_message bs f2 sh = POk pm2 rest2 -> rest1 = rest2.
Proof. exact filter_independent_rest. Qed.
Check c04_filter_independent : forall bs f1 f2 sh pm1 pm2 rest1 rest2,
  dlt_message bs f1 sh = POk pm1 rest1 -> dlt_message bs f2 sh = POk pm2 rest2 -> rest1 = rest2.
Print Assumptions c04_filter_independent.

(* repeated parsing with fuel > length of the buffer stops because the parser stops succeeding,
   never because the fuel ran out; every iteration consumed a whole declared message (c04_message) *)
Theorem c04_parse_all_terminates : forall fuel bs f sh,
  (length bs < fuel)%nat ->
  let '(l, r) := parse_all fuel bs f sh in forall x y, dlt_message r f sh <> POk x y.
Proof. exact parse_all_terminates. Qed.
Check c04_parse_all_terminates : forall fuel bs f sh,
  (length bs < fuel)%nat ->
  let '(l, r) := parse_all fuel bs f sh in forall x y, dlt_message r f sh <> POk x y.
Print Assumptions c04_parse_all_terminates.

(* non-vacuity: a message whose single bool argument is shorter than its declared payload
   (LEN = 0x17, NOAR = 1, five payload bytes + four trailing payload bytes) is accepted and
   the remainder starts behind the declared end *)
Example c04_example :
  let bs := [x21; x00; x00; x17; x41; x01; x41; x00; x00; x00; x43; x00; x00; x00;
             x10; x00; x00; x00; x01; x02; x03; x04; x05; xee; xee] in
  exists m, dlt_message bs None false = POk (Item m) [xee; xee].
Proof. eexists. vm_compute. reflexivity. Qed.
