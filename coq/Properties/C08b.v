(* C08b — the async reader built with a caller-chosen scratch length,
     DltStreamReader::with_capacity(buffer_capacity, message_max_len, source, with_storage_header),
   `buffer: vec![0u8; message_max_len]` (stream.rs).

   What this adds to C08: C08 (c08_schedule, c08_spec) is about the DEFAULT scratch of 16 + 65535 bytes.
   Here the scratch length mml is arbitrary: for every mml, BufReader capacity and poll schedule the async
   reader delivers spec_run_mml (c08b_run) — hence exactly what the blocking reader with the same mml
   delivers (c08b_schedule); spec_run if every need fits (c08b_fits, c08b_fits_cuts; side condition and
   its reading in words: C07b.c07b_fits_iff); the default is an instance (c08b_default_instance, c08b_default_corollary); misuse ends in
   OPanic at the first record that does not fit (c08b_over, c08b_too_long, c08b_no_header).
   Model: Model/ReaderMml.v over Model/Stream.v (the REPAIRED stream.rs).  Spec: Spec/ReaderMmlSpec.v. *)
From DltV.Model Require Import Bytes Reader Stream ReaderMml.
From DltV.Model Require Run.
From DltV.Spec Require Import ReaderSpec ReaderMmlSpec.
From DltV.Proofs Require Import ReaderProofs StreamProofs ReaderMml.
Open Scope N_scope.

Theorem c08b_run : forall mml cap pi s f sh,
  async_run_mml mml cap pi s f sh = (spec_run_mml mml s f sh, true).
Proof. intros. apply run_start, abr_read_exact_spec. Qed.
Check c08b_run : forall mml cap pi s f sh,
  async_run_mml mml cap pi s f sh = (spec_run_mml mml s f sh, true).
Print Assumptions c08b_run.

(* any poll schedule and capacity against any blocking schedule and capacity, fitting or not *)
Theorem c08b_schedule : forall mml cap cap' pi sigma s f sh,
  async_run_mml mml cap pi s f sh = reader_run_mml mml cap' sigma s f sh.
Proof. intros. rewrite c08b_run. symmetry. apply run_start, br_read_exact_spec. Qed.
Check c08b_schedule : forall mml cap cap' pi sigma s f sh,
  async_run_mml mml cap pi s f sh = reader_run_mml mml cap' sigma s f sh.
Print Assumptions c08b_schedule.

(* ---------- 1. FITS ---------- *)
Theorem c08b_fits : forall mml cap pi s f sh,
  fits_mml mml s sh = true ->
  async_run_mml mml cap pi s f sh = (spec_run s f sh, true).
Proof. intros. rewrite c08b_run, spec_run_mml_fits by assumption. reflexivity. Qed.
Check c08b_fits : forall mml cap pi s f sh,
  fits_mml mml s sh = true ->
  async_run_mml mml cap pi s f sh = (spec_run s f sh, true).
Print Assumptions c08b_fits.

Theorem c08b_fits_cuts : forall mml cap pi s f sh,
  hdr_len sh <= mml ->
  Forall (fun c => snd c <= mml) (spec_cuts s sh) ->
  (forall t, trailing_total s sh = Some t -> t <= mml) ->
  async_run_mml mml cap pi s f sh = (spec_run s f sh, true).
Proof. intros. apply c08b_fits, fits_mml_iff. auto. Qed.
Check c08b_fits_cuts : forall mml cap pi s f sh,
  hdr_len sh <= mml ->
  Forall (fun c => snd c <= mml) (spec_cuts s sh) ->
  (forall t, trailing_total s sh = Some t -> t <= mml) ->
  async_run_mml mml cap pi s f sh = (spec_run s f sh, true).
Print Assumptions c08b_fits_cuts.

(* ---------- 2. THE DEFAULT IS AN INSTANCE ---------- *)
Theorem c08b_default_instance : forall cap pi s f sh,
  async_run_mml message_max_len cap pi s f sh = async_run_cap cap pi s f sh.
Proof. reflexivity. Qed.
Check c08b_default_instance : forall cap pi s f sh,
  async_run_mml message_max_len cap pi s f sh = async_run_cap cap pi s f sh.
Print Assumptions c08b_default_instance.

(* C08.c08_spec follows: c08b_fits at the instance, by C07b.c07b_default_fits (Proofs/ReaderMml.run_start_default) *)
Theorem c08b_default_corollary : forall cap pi s f sh,
  async_run_cap cap pi s f sh = (spec_run s f sh, true).
Proof. intros. apply run_start_default, abr_read_exact_spec. Qed.
Check c08b_default_corollary : forall cap pi s f sh,
  async_run_cap cap pi s f sh = (spec_run s f sh, true).
Print Assumptions c08b_default_corollary.

(* ---------- 3. TOO LONG ---------- *)
Theorem c08b_over : forall mml cap pi s f sh i,
  first_over mml (spec_needs s sh) = Some i ->
  async_run_mml mml cap pi s f sh = (until_panic (firstn i (spec_run s f sh) ++ [OPanic]), true).
Proof. intros. rewrite c08b_run, (spec_run_mml_over _ _ _ _ i) by assumption. reflexivity. Qed.
Check c08b_over : forall mml cap pi s f sh i,
  first_over mml (spec_needs s sh) = Some i ->
  async_run_mml mml cap pi s f sh = (until_panic (firstn i (spec_run s f sh) ++ [OPanic]), true).
Print Assumptions c08b_over.

Theorem c08b_too_long : forall mml cap pi s f sh i,
  first_over mml (spec_needs s sh) = Some i ->
  ~ In OPanic (firstn i (spec_run s f sh)) ->
  async_run_mml mml cap pi s f sh = (firstn i (spec_run s f sh) ++ [OPanic], true).
Proof. intros. rewrite c08b_run, (spec_run_mml_too_long _ _ _ _ i) by assumption. reflexivity. Qed.
Check c08b_too_long : forall mml cap pi s f sh i,
  first_over mml (spec_needs s sh) = Some i ->
  ~ In OPanic (firstn i (spec_run s f sh)) ->
  async_run_mml mml cap pi s f sh = (firstn i (spec_run s f sh) ++ [OPanic], true).
Print Assumptions c08b_too_long.

Theorem c08b_no_header : forall mml cap pi s f sh,
  mml < hdr_len sh -> async_run_mml mml cap pi s f sh = ([OPanic], true).
Proof. intros. rewrite c08b_run, spec_run_mml_no_header by assumption. reflexivity. Qed.
Check c08b_no_header : forall mml cap pi s f sh,
  mml < hdr_len sh -> async_run_mml mml cap pi s f sh = ([OPanic], true).
Print Assumptions c08b_no_header.

(* ---------- 4. THE TIE TO THE DIFFERENTIAL TEST: the run inside Run.op_async ---------- *)
Theorem c08b_op_async : forall c mml pi s f sh, mml <> 0 ->
  run_with (abr_read_exact (Run.cap_mml c mml)) true (length s + 1) f sh (Run.reader_of mml pi s)
  = async_run_mml mml (Run.cap_mml c mml) pi s f sh.
Proof. intros. rewrite run_reader_of_mml by assumption. reflexivity. Qed.
Check c08b_op_async : forall c mml pi s f sh, mml <> 0 ->
  run_with (abr_read_exact (Run.cap_mml c mml)) true (length s + 1) f sh (Run.reader_of mml pi s)
  = async_run_mml mml (Run.cap_mml c mml) pi s f sh.
Print Assumptions c08b_op_async.

(* ---------- examples ---------- *)
(* ex_m1, ex_m2, ex_sh, kinds: Spec/ReaderSpec.v; 0 = message, 2 = ParsingHickup, 3 = Unrecoverable, 4 = panic *)

(* pending polls between small chunks, BufReader capacity 3; mml = the longest total / one less *)
Example c08b_example_fits_and_over :
  let s := ex_m1 ++ [x00; x00; x00; x02] ++ ex_m2 in
  let pi := [0; 1; 0; 0; 2; 0; 5; 1; 0] in
  fits_mml 10 s false = true
  /\ kinds (async_run_mml 10 3 pi s None false) = ([0; 2; 0], true)
  /\ async_run_mml 10 3 pi s None false = async_run_default [] s None false
  /\ first_over 9 (spec_needs s false) = Some 2%nat
  /\ ~ In OPanic (firstn 2 (spec_run s None false))
  /\ kinds (async_run_mml 9 3 pi s None false) = ([0; 2; 4], true)
  /\ kinds (async_run_mml 3 3 pi s None false) = ([4], true).
Proof.
  vm_compute. repeat split; try reflexivity. intros [H|[H|[]]]; discriminate.
Qed.

Example c08b_example_trailing_and_storage_header :
  kinds (async_run_mml 10 3 [0; 4; 0; 1] (ex_m1 ++ firstn 7 ex_m2) None false) = ([0; 3], true)
  /\ kinds (async_run_mml 9 3 [0; 4; 0; 1] (ex_m1 ++ firstn 7 ex_m2) None false) = ([0; 4], true)
  /\ kinds (async_run_mml 26 3 [0; 1; 0; 0; 2; 30] (ex_sh ++ ex_m1 ++ ex_sh ++ ex_m2) None true) = ([0; 0], true)
  /\ kinds (async_run_mml 25 3 [0; 1; 0; 0; 2; 30] (ex_sh ++ ex_m1 ++ ex_sh ++ ex_m2) None true) = ([0; 4], true)
  /\ kinds (async_run_mml 19 3 [0; 1; 0] [] None true) = ([4], true).
Proof. vm_compute. repeat split; reflexivity. Qed.
