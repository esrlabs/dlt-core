(* C11b — C11 for FIBEX documents as tools write them.

   C11 (Properties/C11.v) is stated for the bare canonical event shape [files_of l] of
   Spec/FibexSpec.v.  Real documents (tests/dlt-messages.xml; style 1 of the test harness's
   generator) additionally contain an XML declaration and comments, white-space Text between all
   tags, wrapper elements (FIBEX, PROJECT with a SHORT-NAME, ELEMENTS, PDUS, FRAMES, SIGNALS,
   CODINGS), ignored children (SHORT-NAME inside SIGNAL and CODING, CODED-TYPE with further
   attributes and a nested BIT-LENGTH), and an ECU block whose SHORT-NAME / MANUFACTURER-EXTENSION /
   APPLICATION_ID / CONTEXT_ID elements the loader's reader does act upon.

   Spec/FibexPretty.v defines [file_pad els file']: file' is a padding of the canonical rendering
   of the elements els (layer 1 [pad0]: inert events anywhere except directly behind a Start event
   whose text the loader reads, and attribute lists that agree on ID / ID-REF / BASE-DATA-TYPE;
   layer 2 [pad_elements]: state-changing but harmless [noise] between top-level elements and inside
   SIGNAL / CODING; layer 1 is used in both directions, so file' may also lack inert events of the
   canonical shape).  Padding does not change what the loader returns. *)
From Coq Require Import Sorting.Permutation.
From Coq.Strings Require Import Ascii String.
From DltV.Model Require Import Bytes RustInt Dlt Fibex.
From DltV.Spec Require Import FibexSpec FibexPretty.
From DltV.Proofs Require Import FibexOrder FibexPretty.
Open Scope N_scope.

(* ---- padding is irrelevant ---- *)
Theorem c11b_padding_irrelevant : forall (l : layout) (files' : list xfile),
  elements_ok (concat l) = true -> Forall2 file_pad l files' ->
  load files' = load (files_of l) /\ gather_fibex_data files' = gather_fibex_data (files_of l).
Proof. exact padding_irrelevant. Qed.
Check c11b_padding_irrelevant : forall (l : layout) (files' : list xfile),
  elements_ok (concat l) = true -> Forall2 file_pad l files' ->
  load files' = load (files_of l) /\ gather_fibex_data files' = gather_fibex_data (files_of l).
Print Assumptions c11b_padding_irrelevant.

(* layer 1 alone holds for ARBITRARY event lists (malformed documents included): the loader's
   verdict, whatever it is, does not change *)
Theorem c11b_inert_irrelevant : forall (files files' : list xfile),
  Forall2 xfile_pad0 files files' -> load files' = load files.
Proof. exact pad0_load. Qed.
Check c11b_inert_irrelevant : forall (files files' : list xfile),
  Forall2 xfile_pad0 files files' -> load files' = load files.
Print Assumptions c11b_inert_irrelevant.

(* balanced elements with unrecognised names (nested, with text, comments, any attributes) consist
   of inert events, hence may be inserted wherever an inert event may *)
Theorem c11b_inert_forest : forall j l l', inert_forest j -> pad0 l l' -> pad0 l (j ++ l').
Proof. exact pad0_ins_forest. Qed.
Check c11b_inert_forest : forall j l l', inert_forest j -> pad0 l l' -> pad0 l (j ++ l').
Print Assumptions c11b_inert_forest.

(* the canonical rendering is a padding of itself *)
Theorem c11b_pad_refl : forall (l : layout), Forall2 file_pad l (files_of l).
Proof. exact file_pad_render. Qed.
Check c11b_pad_refl : forall (l : layout), Forall2 file_pad l (files_of l).
Print Assumptions c11b_pad_refl.

(* ---- combined with C11: loading a padded rendering of a layout returns its meaning ---- *)
Theorem c11b_load_padded : forall (a : afibex) (l : layout) (files' : list xfile),
  is_layout_of a l -> model_ok a = true -> Forall2 file_pad l files' ->
  exists m d, gather_fibex_data files' = Some m /\ denote (concat l) = Some d /\ meta_equiv m d.
Proof. exact load_padded. Qed.
Check c11b_load_padded : forall (a : afibex) (l : layout) (files' : list xfile),
  is_layout_of a l -> model_ok a = true -> Forall2 file_pad l files' ->
  exists m d, gather_fibex_data files' = Some m /\ denote (concat l) = Some d /\ meta_equiv m d.
Print Assumptions c11b_load_padded.

Theorem c11b_load_padded_elements : forall (l : layout) (files' : list xfile),
  l <> [] -> elements_ok (concat l) = true -> Forall2 file_pad l files' ->
  match denote (concat l) with
  | Some d => exists m, gather_fibex_data files' = Some m /\ meta_equiv m d
  | None => load files' = Refused /\ gather_fibex_data files' = None
  end.
Proof. exact load_padded_elements. Qed.
Check c11b_load_padded_elements : forall (l : layout) (files' : list xfile),
  l <> [] -> elements_ok (concat l) = true -> Forall2 file_pad l files' ->
  match denote (concat l) with
  | Some d => exists m, gather_fibex_data files' = Some m /\ meta_equiv m d
  | None => load files' = Refused /\ gather_fibex_data files' = None
  end.
Print Assumptions c11b_load_padded_elements.

Theorem c11b_load_padded_canonical : forall (a : afibex) (l : layout) (files' : list xfile),
  is_layout_of a l -> model_ok a = true -> unique_ids (render_elements a) ->
  Forall2 file_pad l files' ->
  exists m d, gather_fibex_data files' = Some m /\ denote (render_elements a) = Some d /\
              meta_equiv m d.
Proof. exact load_padded_canonical. Qed.
Check c11b_load_padded_canonical : forall (a : afibex) (l : layout) (files' : list xfile),
  is_layout_of a l -> model_ok a = true -> unique_ids (render_elements a) ->
  Forall2 file_pad l files' ->
  exists m d, gather_fibex_data files' = Some m /\ denote (render_elements a) = Some d /\
              meta_equiv m d.
Print Assumptions c11b_load_padded_canonical.

(* ========================================================================================== *)
(* a style-1 document (harness/src/genfibex.rs, render_file with style = 1, ecu_block = true)   *)
(* ========================================================================================== *)
Definition xp1 : apdu := mkAPdu (bs "P1") (bs "P1") (Some (bs "speed: ")) 8 [(0, bs "SIG1")].
Definition xf7 : aframe :=
  mkAFrame (bs "ID_7") (bs "frame7") 8 (Some (bs "APP")) (Some (bs "CTX"))
           (Some (bs "DLT_TYPE_LOG")) (Some (bs "DLT_LOG_WARN")) [(0, bs "P1")].
Definition xmodel : afibex :=
  mkAFibex [xf7] [xp1] [(bs "SIG1", bs "COD1")] [(bs "COD1", bs "A_FLOAT64")].
Definition xels : list element :=
  [ElPdu xp1; ElFrame xf7; ElSignal (bs "SIG1") (bs "COD1"); ElCoding (bs "COD1") (bs "A_FLOAT64")].
Definition xlayout : layout := [xels].

(* "\n" followed by the indentation of depth d *)
Definition nl (d : nat) : xevent := XText (Some (n2b 10 :: repeat (n2b 32) (4 * d))).
Definition st (n : string) : xevent := XStart (bs n) [].
Definition en (n : string) : xevent := XEnd (bs n).
Definition at_ (k v : string) : xattr := Attr (bs k) (Some (bs v)).
(* <n>t</n> preceded by its line break *)
Definition tx (d : nat) (n t : string) : list xevent := nl d :: text_el n (bs t).

(* the events quick-xml delivers (local names; attribute keys keep their prefix) *)
Definition xdoc : list xevent :=
  [XOther;                                                              (* <?xml ..?> *)
   nl 0; XStart (bs "FIBEX") [at_ "xmlns:ho" "http://www.asam.net/xml";
                              at_ "xmlns:fx" "http://www.asam.net/xml/fbx"];
   nl 1; XStart (bs "PROJECT") [at_ "ID" "Project"]]
  ++ tx 2 "SHORT-NAME" "ProjectName"
  ++ [nl 1; en "PROJECT";
      nl 1; st "ELEMENTS";
      nl 2; st "ECUS";
      nl 3; XStart (bs "ECU") [at_ "ID" "ECU1"]]
  ++ tx 4 "SHORT-NAME" "ECU1"
  ++ [nl 4; st "MANUFACTURER-EXTENSION"]
  ++ tx 5 "SW_VERSION" "unknown"
  ++ [nl 5; st "APPLICATIONS"; nl 6; st "APPLICATION"]
  ++ tx 7 "APPLICATION_ID" "DR"
  ++ tx 7 "APPLICATION_DESCRIPTION" "XYZ"
  ++ [nl 7; st "CONTEXTS"; nl 8; st "CONTEXT"]
  ++ tx 9 "CONTEXT_ID" "TIME"
  ++ tx 9 "CONTEXT_DESCRIPTION" "Description"
  ++ [nl 8; en "CONTEXT"; nl 7; en "CONTEXTS"; nl 6; en "APPLICATION"; nl 5; en "APPLICATIONS";
      nl 4; en "MANUFACTURER-EXTENSION"; nl 3; en "ECU"; nl 2; en "ECUS";
      nl 0; XOther;                                                     (* <!-- generated --> *)
      (* PDU *)
      nl 2; st "PDUS";
      nl 3; XStart (bs "PDU") [at_ "ID" "P1"]]
  ++ tx 4 "SHORT-NAME" "P1"
  ++ tx 4 "DESC" "speed: "
  ++ tx 4 "BYTE-LENGTH" "8"
  ++ tx 4 "PDU-TYPE" "OTHER"
  ++ [nl 4; st "SIGNAL-INSTANCES";
      nl 5; XStart (bs "SIGNAL-INSTANCE") [at_ "ID" "I"]]
  ++ tx 6 "SEQUENCE-NUMBER" "0"
  ++ [nl 6; XEmpty (bs "SIGNAL-REF") [at_ "ID-REF" "SIG1"];
      nl 5; en "SIGNAL-INSTANCE";
      nl 4; en "SIGNAL-INSTANCES";
      nl 3; en "PDU";
      nl 2; en "PDUS";
      (* FRAME *)
      nl 2; st "FRAMES";
      nl 3; XStart (bs "FRAME") [at_ "ID" "ID_7"]]
  ++ tx 4 "SHORT-NAME" "frame7"
  ++ tx 4 "BYTE-LENGTH" "8"
  ++ tx 4 "FRAME-TYPE" "OTHER"
  ++ [nl 4; st "PDU-INSTANCES";
      nl 5; XStart (bs "PDU-INSTANCE") [at_ "ID" "I"];
      nl 6; XEmpty (bs "PDU-REF") [at_ "ID-REF" "P1"]]
  ++ tx 6 "SEQUENCE-NUMBER" "0"
  ++ [nl 5; en "PDU-INSTANCE";
      nl 4; en "PDU-INSTANCES";
      nl 4; st "MANUFACTURER-EXTENSION"]
  ++ tx 5 "MESSAGE_TYPE" "DLT_TYPE_LOG"
  ++ tx 5 "MESSAGE_INFO" "DLT_LOG_WARN"
  ++ tx 5 "APPLICATION_ID" "APP"
  ++ tx 5 "CONTEXT_ID" "CTX"
  ++ [nl 4; en "MANUFACTURER-EXTENSION";
      nl 3; en "FRAME";
      nl 2; en "FRAMES";
      (* SIGNAL *)
      nl 2; st "SIGNALS";
      nl 3; XStart (bs "SIGNAL") [at_ "ID" "SIG1"]]
  ++ tx 4 "SHORT-NAME" "SIG1"
  ++ [nl 4; XEmpty (bs "CODING-REF") [at_ "ID-REF" "COD1"];
      nl 3; en "SIGNAL";
      nl 2; en "SIGNALS";
      (* CODING *)
      nl 2; st "CODINGS";
      nl 3; XStart (bs "CODING") [at_ "ID" "COD1"]]
  ++ tx 4 "SHORT-NAME" "COD1"
  ++ [nl 4; XStart (bs "CODED-TYPE") [at_ "ho:BASE-DATA-TYPE" "A_FLOAT64";
                                      at_ "CATEGORY" "STANDARD-LENGTH-TYPE";
                                      at_ "ENCODING" "UNSIGNED"]]
  ++ tx 5 "BIT-LENGTH" "8"
  ++ [nl 4; en "CODED-TYPE";
      nl 3; en "CODING";
      nl 2; en "CODINGS";
      nl 1; en "ELEMENTS";
      nl 0; en "FIBEX";
      nl 0].

(* the intermediate event list: the elements with the state-changing noise only *)
Definition xnoise_head : list xevent :=
  text_el "SHORT-NAME" (bs "ProjectName")
  ++ text_el "SHORT-NAME" (bs "ECU1")
  ++ [st "MANUFACTURER-EXTENSION"]
  ++ text_el "APPLICATION_ID" (bs "DR")
  ++ text_el "CONTEXT_ID" (bs "TIME")
  ++ [en "MANUFACTURER-EXTENSION"].
Definition xsignal : list xevent :=
  [XStart (bs "SIGNAL") [id_attr_of (bs "SIG1")]] ++ text_el "SHORT-NAME" (bs "SIG1")
  ++ [XEmpty (bs "CODING-REF") [id_ref_attr_of (bs "COD1")]] ++ []
  ++ [XEnd (bs "SIGNAL")].
Definition xcoding : list xevent :=
  [XStart (bs "CODING") [id_attr_of (bs "COD1")]] ++ text_el "SHORT-NAME" (bs "COD1")
  ++ [XStart (bs "CODED-TYPE") [Attr (bs "ho:BASE-DATA-TYPE") (Some (bs "A_FLOAT64"))]] ++ []
  ++ [XEnd (bs "CODED-TYPE")] ++ []
  ++ [XEnd (bs "CODING")].
Definition xmid : list xevent :=
  xnoise_head ++ render_pdu xp1 ++ [] ++ render_frame xf7 ++ [] ++ xsignal ++ [] ++ xcoding ++ [].

Ltac solve_noise :=
  repeat first
    [ apply noise_nil
    | apply noise_inert; [reflexivity|]
    | apply noise_text; [reflexivity|]
    | eapply noise_num; [reflexivity|vm_compute; reflexivity|]
    | apply noise_desc; [reflexivity|]
    | apply noise_ext_start; [reflexivity|]
    | apply noise_ext_end; [reflexivity|] ].

Example c11b_ex_noise_head : noise xnoise_head.
Proof. unfold xnoise_head, text_el, st, en. cbn [app]. solve_noise. Qed.

Example c11b_ex_mid : pad_elements xels xmid.
Proof.
  unfold xels, xmid.
  apply (pes_cons xnoise_head); [exact c11b_ex_noise_head|apply pe_pdu|].
  apply (pes_cons []); [apply noise_nil|apply pe_frame|].
  apply (pes_cons []); [apply noise_nil| |].
  { apply (pe_signal (bs "SIG1") (bs "COD1") (text_el "SHORT-NAME" (bs "SIG1")) []);
      unfold text_el; solve_noise. }
  apply (pes_cons []); [apply noise_nil| |].
  { apply (pe_coding (bs "COD1") (bs "A_FLOAT64") (text_el "SHORT-NAME" (bs "COD1")) [] []);
      unfold text_el; solve_noise. }
  apply pes_nil. apply noise_nil.
Qed.

Example c11b_ex_pad0 : pad0 xmid xdoc.
Proof. apply pad0b_sound. vm_compute. reflexivity. Qed.

Example c11b_ex_file_pad : Forall2 file_pad xlayout [FileEvents xdoc].
Proof.
  constructor; [|constructor]. constructor. exists xmid, xmid.
  split; [exact c11b_ex_mid|]. split; [apply pad0_refl|exact c11b_ex_pad0].
Qed.

Example c11b_ex_model_ok : model_ok xmodel = true.
Proof. vm_compute. reflexivity. Qed.
Example c11b_ex_elements_ok : elements_ok (concat xlayout) = true.
Proof. vm_compute. reflexivity. Qed.
Example c11b_ex_layout : is_layout_of xmodel xlayout.
Proof. split; [discriminate|apply Permutation_refl]. Qed.

(* what the padded document loads to *)
Definition xframe7 : frame_metadata :=
  mkFrame (bs "frame7") [ mkPdu (Some (bs "speed: ")) [ti_float64] ]
    (Some (bs "APP")) (Some (bs "CTX")) (Some (bs "DLT_TYPE_LOG")) (Some (bs "DLT_LOG_WARN")).

Example c11b_ex_load :
  exists m, gather_fibex_data [FileEvents xdoc] = Some m /\
            gather_fibex_data (files_of xlayout) = Some m /\
            extract_metadata m 7 None = Some xframe7 /\
            extract_metadata m 7 (Some (mkExt false 0 (MLog Info) (bs "APP") (bs "CTX"))) = Some xframe7 /\
            extract_metadata m 7 (Some (mkExt false 0 (MLog Info) (bs "DR") (bs "TIME"))) = None /\
            extract_metadata m 8 None = None.
Proof. eexists. split; [vm_compute; reflexivity|]. vm_compute. repeat split. Qed.

(* a PDU as in tests/dlt-messages.xml: pretty-printed and WITHOUT the SIGNAL-INSTANCES wrapper *)
Definition xp4000 : apdu := mkAPdu (bs "ID_4000") (bs "ID_4000") (Some (bs "timeing: ")) 0 [].
Definition xcore4000 : list xevent :=
  [XStart (bs "PDU") [at_ "ID" "ID_4000"]]
  ++ text_el "SHORT-NAME" (bs "ID_4000") ++ text_el "DESC" (bs "timeing: ")
  ++ text_el "BYTE-LENGTH" (bs "0") ++ text_el "PDU-TYPE" (bs "OTHER") ++ [en "PDU"].
Definition xdoc4000 : list xevent :=
  [nl 3; XStart (bs "PDU") [at_ "ID" "ID_4000"]]
  ++ tx 4 "SHORT-NAME" "ID_4000" ++ tx 4 "DESC" "timeing: "
  ++ tx 4 "BYTE-LENGTH" "0" ++ tx 4 "PDU-TYPE" "OTHER" ++ [nl 3; en "PDU"; nl 0].

Example c11b_ex_lacking : Forall2 file_pad [[ElPdu xp4000]] [FileEvents xdoc4000].
Proof.
  constructor; [|constructor]. constructor.
  exists (render_pdu xp4000 ++ []), xcore4000. split; [|split].
  - apply (pes_cons [] (ElPdu xp4000) (render_pdu xp4000) [] []);
      [apply noise_nil|apply pe_pdu|apply pes_nil; apply noise_nil].
  - apply pad0b_sound. vm_compute. reflexivity.
  - apply pad0b_sound. vm_compute. reflexivity.
Qed.

(* the position restriction of [pad0] is necessary: white space directly behind <SHORT-NAME> is
   taken for the name (and the real name is then skipped as Text) *)
Example c11b_ex_position :
  let good := [XStart (bs "FRAME") [at_ "ID" "F"]] ++ text_el "SHORT-NAME" (bs "name")
              ++ text_el "BYTE-LENGTH" (bs "1") ++ [en "FRAME"] in
  let bad := [XStart (bs "FRAME") [at_ "ID" "F"]; st "SHORT-NAME"; nl 1; XText (Some (bs "name")); en "SHORT-NAME"]
              ++ text_el "BYTE-LENGTH" (bs "1") ++ [en "FRAME"] in
  option_map (fun m => map (fun x => fm_short_name (snd x)) (frame_map m)) (gather_fibex_data [FileEvents good])
    = Some [bs "name"] /\
  option_map (fun m => map (fun x => fm_short_name (snd x)) (frame_map m)) (gather_fibex_data [FileEvents bad])
    = Some [n2b 10 :: repeat (n2b 32) 4].
Proof. vm_compute. split; reflexivity. Qed.
