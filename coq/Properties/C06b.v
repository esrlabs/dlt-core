(* C06b — C06 (storage-header resync) composed with the round trip C01: junk in front of the serialised
   bytes of a well-formed message with storage header is skipped and the message itself comes back; a
   stream of such messages with pattern-free junk before, between and behind them is recovered completely
   and in order.  [messages_bytes [(j1,m1); ...; (jn,mn)] tail = j1 ++ message_bytes m1 ++ ... ++ jn ++
   message_bytes mn ++ tail] (Proofs/Resync.v). *)
From DltV.Model Require Import Bytes Nom Dlt Parse.
From DltV.Spec Require Import WellFormed FilterSpec.
From DltV.Proofs Require Import Search Resync Roundtrip Compose.
Open Scope N_scope.

Theorem c06b_junk_message : forall junk m rest f,
  wf_message m = true -> has_storage m = true -> (forall j, ~ pattern_at junk j) ->
  dlt_message (junk ++ message_bytes m ++ rest) f true = dlt_message (message_bytes m ++ rest) f true
  /\ dlt_message (message_bytes m ++ rest) None true = POk (Item m) rest.
Proof.
  intros junk m rest f Hwf Hs Hj. destruct (message_bytes_starts_with_pattern m rest Hwf Hs) as [Hp H16]. split.
  - apply junk_skipped; assumption.
  - rewrite <- Hs. apply message_roundtrip, Hwf.
Qed.
Check c06b_junk_message : forall junk m rest f,
  wf_message m = true -> has_storage m = true -> (forall j, ~ pattern_at junk j) ->
  dlt_message (junk ++ message_bytes m ++ rest) f true = dlt_message (message_bytes m ++ rest) f true
  /\ dlt_message (message_bytes m ++ rest) None true = POk (Item m) rest.
Print Assumptions c06b_junk_message.

Theorem c06b_stream_recovered : forall l jn fuel,
  (forall j m, In (j, m) l ->
     (forall k, ~ pattern_at j k) /\ wf_message m = true /\ has_storage m = true) ->
  (forall k, ~ pattern_at jn k) -> (length l < fuel)%nat ->
  parse_all fuel (messages_bytes l jn) None true = (map (fun p => Item (snd p)) l, jn).
Proof.
  intros l jn fuel Hl Hjn Hf. apply (messages_recovered None Item l jn fuel); [|exact Hjn|exact Hf].
  intros j m Hin. destruct (Hl j m Hin) as (Hj & Hwf & Hs). split; [exact Hj|]. split.
  - unfold has_storage in Hs. destruct (m_storage m); [discriminate|discriminate Hs].
  - intros tail. rewrite <- Hs. apply message_roundtrip, Hwf.
Qed.
Check c06b_stream_recovered : forall l jn fuel,
  (forall j m, In (j, m) l ->
     (forall k, ~ pattern_at j k) /\ wf_message m = true /\ has_storage m = true) ->
  (forall k, ~ pattern_at jn k) -> (length l < fuel)%nat ->
  parse_all fuel (messages_bytes l jn) None true = (map (fun p => Item (snd p)) l, jn).
Print Assumptions c06b_stream_recovered.

(* with a filter configuration (C09): each message is delivered or replaced by the marker as the drop rule
   [spec_dropped] says, the junk is skipped all the same *)
Theorem c06b_stream_filtered : forall cfg l jn fuel,
  (forall j m, In (j, m) l ->
     (forall k, ~ pattern_at j k) /\ wf_message m = true /\ has_storage m = true) ->
  (forall k, ~ pattern_at jn k) -> (length l < fuel)%nat ->
  parse_all fuel (messages_bytes l jn) (Some (process_filter cfg)) true
  = (map (fun p => if spec_dropped cfg (snd p) then FilteredOut (h_payload_length (m_header (snd p)))
                   else Item (snd p)) l, jn).
Proof.
  intros cfg l jn fuel Hl Hjn Hf.
  apply (messages_recovered (Some (process_filter cfg))
           (fun m => if spec_dropped cfg m then FilteredOut (h_payload_length (m_header m)) else Item m)
           l jn fuel); [|exact Hjn|exact Hf].
  intros j m Hin. destruct (Hl j m Hin) as (Hj & Hwf & Hs). split; [exact Hj|]. split.
  - unfold has_storage in Hs. destruct (m_storage m); [discriminate|discriminate Hs].
  - intros tail. rewrite <- Hs, (filter_message m cfg tail Hwf). now destruct (spec_dropped cfg m).
Qed.
Check c06b_stream_filtered : forall cfg l jn fuel,
  (forall j m, In (j, m) l ->
     (forall k, ~ pattern_at j k) /\ wf_message m = true /\ has_storage m = true) ->
  (forall k, ~ pattern_at jn k) -> (length l < fuel)%nat ->
  parse_all fuel (messages_bytes l jn) (Some (process_filter cfg)) true
  = (map (fun p => if spec_dropped cfg (snd p) then FilteredOut (h_payload_length (m_header (snd p)))
                   else Item (snd p)) l, jn).
Print Assumptions c06b_stream_filtered.

(* ---------- non-vacuity ---------- *)
(* a verbose log message (one u8 argument) with storage header, ECU id, extended header *)
Definition ex_u8 : argument := mkArg (mkTI (KUnsigned BL8) SAscii false false) None None None (VU8 200).
Definition ex_m1 : message :=
  mkMsg (Some (mkSH (mkTS 1700000000 999999) [x45; x43; x55]))
        (mkStd 1 BE true 7 (Some [x45; x31]) None (Some 123456) 5)
        (Some (mkExt true 1 (MLog Warn) [x41; x50; x50] [x43; x54; x58]))
        (PVerbose [ex_u8]).
(* Resync.ex_msg: storage header, no extended header, non-verbose *)
Definition ex_m2 : message := Resync.ex_msg.

Example c06b_ex_hyps :
  wf_message ex_m1 = true /\ has_storage ex_m1 = true /\ wf_message ex_m2 = true /\ has_storage ex_m2 = true
  /\ (forall j, ~ pattern_at [xff; x44; x4c; x54] j).
Proof. repeat split; try (vm_compute; reflexivity). apply no_pattern; reflexivity. Qed.

Example c06b_ex_junk_message :
  dlt_message ([xff; x44; x4c; x54] ++ message_bytes ex_m1 ++ [xee]) None true = POk (Item ex_m1) [xee].
Proof. vm_compute. reflexivity. Qed.

(* the hypotheses of c06b_stream_recovered for a two-message stream, and the recovered stream by evaluation *)
Example c06b_ex_stream :
  let l := [([x00; x44; x4c; x54], ex_m1); ([x44; x4c], ex_m2)] in
  (forall j m, In (j, m) l ->
     (forall k, ~ pattern_at j k) /\ wf_message m = true /\ has_storage m = true)
  /\ (forall k, ~ pattern_at [x44; x4c; x54] k)
  /\ parse_all 3 (messages_bytes l [x44; x4c; x54]) None true = ([Item ex_m1; Item ex_m2], [x44; x4c; x54])
  /\ parse_all 3 (messages_bytes l [x44; x4c; x54]) (Some (process_filter (mkFC (Some 2) None None None 0 0))) true
     = ([FilteredOut 5; Item ex_m2], [x44; x4c; x54]).
Proof.
  cbv zeta. split; [|split; [|split]].
  - intros j m [H|[H|[]]]; injection H as <- <-;
      (split; [apply no_pattern; reflexivity|]; split; vm_compute; reflexivity).
  - apply no_pattern; reflexivity.
  - vm_compute. reflexivity.
  - vm_compute. reflexivity.
Qed.
