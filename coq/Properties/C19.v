(* C19 — "Extracting a string field of declared size n from a buffer holding at least n bytes
   consumes exactly n bytes and returns the longest valid-UTF-8 prefix of the bytes that precede
   the first NUL among those n bytes (all n if there is none); with fewer than n bytes available
   it reports incomplete, any size hint being no larger than the shortfall."

   [zstring] (Model/Parse.v) is dlt_zero_terminated_string_intern.  [c19_enough] gives the result
   as  utf8_prefix (upto_nul (first n bytes)),  rest = input minus n bytes.  [c19_upto_nul] pins
   [upto_nul] ("the bytes that precede the first NUL, all if none") and [c19_utf8] pins
   [utf8_prefix] ("the longest valid-UTF-8 prefix") against the declarative [wf_utf8]
   (Unicode table 3-7) of Proofs/Utf8Lemmas.v. *)
From Coq Require Import Lia.
From DltV.Model Require Import Bytes Utf8 Nom Parse.
From DltV.Proofs Require Import BytesBasics Utf8Lemmas ZString.
Open Scope N_scope.

Theorem c19_enough : forall size s, size <= len s ->
  zstring size s =
  POk (utf8_prefix (upto_nul (firstn (N.to_nat size) s))) (skipn (N.to_nat size) s).
Proof. exact zstring_enough. Qed.
Check c19_enough : forall size s, size <= len s ->
  zstring size s =
  POk (utf8_prefix (upto_nul (firstn (N.to_nat size) s))) (skipn (N.to_nat size) s).
Print Assumptions c19_enough.

Theorem c19_short : forall size s, len s < size ->
  exists n, zstring size s = PIncomplete (Some n) /\ 1 <= n <= size - len s.
Proof. exact zstring_short. Qed.
Check c19_short : forall size s, len s < size ->
  exists n, zstring size s = PIncomplete (Some n) /\ 1 <= n <= size - len s.
Print Assumptions c19_short.

(* [utf8_prefix l] is a prefix of [l], is well-formed UTF-8, and no well-formed prefix is longer *)
Theorem c19_utf8 : forall l,
  (exists r, l = utf8_prefix l ++ r) /\
  wf_utf8 (utf8_prefix l) /\
  (forall p r, l = p ++ r -> wf_utf8 p -> (length p <= length (utf8_prefix l))%nat).
Proof.
  intros l.
  split; [apply utf8_prefix_is_prefix|]. split; [apply utf8_prefix_wf|].
  intros p r. apply utf8_prefix_maximal.
Qed.
Check c19_utf8 : forall l,
  (exists r, l = utf8_prefix l ++ r) /\
  wf_utf8 (utf8_prefix l) /\
  (forall p r, l = p ++ r -> wf_utf8 p -> (length p <= length (utf8_prefix l))%nat).
Print Assumptions c19_utf8.

(* [upto_nul l] is NUL-free and is followed in [l] by nothing or by a NUL *)
Theorem c19_upto_nul : forall l,
  no_nul (upto_nul l) = true /\
  exists r, l = upto_nul l ++ r /\ (r = [] \/ exists r', r = x00 :: r').
Proof.
  intros l.
  split; [apply upto_nul_no_nul|apply upto_nul_split].
Qed.
Check c19_upto_nul : forall l,
  no_nul (upto_nul l) = true /\
  exists r, l = upto_nul l ++ r /\ (r = [] \/ exists r', r = x00 :: r').
Print Assumptions c19_upto_nul.

(* the executable validity test used in the well-formedness specs is the declarative one *)
Theorem c19_valid_iff : forall l, valid_utf8 l = true <-> wf_utf8 l.
Proof. exact valid_utf8_iff. Qed.
Check c19_valid_iff : forall l, valid_utf8 l = true <-> wf_utf8 l.
Print Assumptions c19_valid_iff.

Theorem c19_no_panic : forall size s, zstring size s <> PPanic.
Proof. exact zstring_no_panic. Qed.
Check c19_no_panic : forall size s, zstring size s <> PPanic.
Print Assumptions c19_no_panic.

(* "consumes exactly n bytes" *)
Theorem c19_consumes : forall size s r rest, zstring size s = POk r rest ->
  len s = size + len rest /\ exists c, len c = size /\ s = c ++ rest.
Proof.
  intros size s r rest H. apply zstring_ok_inv in H. destruct H as (Hle & _ & ->).
  split.
  - rewrite len_skipn_N. lia.
  - exists (firstn (N.to_nat size) s). split; [apply len_firstn_N, Hle|].
    symmetry. apply firstn_skipn.
Qed.
Check c19_consumes : forall size s r rest, zstring size s = POk r rest ->
  len s = size + len rest /\ exists c, len c = size /\ s = c ++ rest.
Print Assumptions c19_consumes.

(* the hint is exactly the shortfall when a NUL was seen, otherwise 1 *)
Theorem c19_short_exact : forall size s, len s < size ->
  zstring size s = PIncomplete (Some (if no_nul s then 1 else size - len s)).
Proof. exact zstring_short_exact. Qed.
Check c19_short_exact : forall size s, len s < size ->
  zstring size s = PIncomplete (Some (if no_nul s then 1 else size - len s)).
Print Assumptions c19_short_exact.

(* ---------- examples (by evaluation) ---------- *)

(* "aé" = 61 C3 A9: the size limit 2 cuts the two-byte sequence; all of the 2 bytes are consumed *)
Example c19_ex_cut_by_size :
  zstring 2 [x61; xc3; xa9; x62] = POk [x61] [xa9; x62] /\ 2 <= len [x61; xc3; xa9; x62].
Proof. split; vm_compute; [reflexivity|discriminate]. Qed.

(* "a€" = 61 E2 82 AC with a NUL in place of the last byte: the NUL cuts the three-byte sequence *)
Example c19_ex_cut_by_nul :
  zstring 5 [x61; xe2; x82; x00; x62; x63] = POk [x61] [x63].
Proof. vm_compute. reflexivity. Qed.

(* whole valid content, NUL padding, trailing bytes untouched *)
Example c19_ex_padded :
  zstring 5 [xe2; x82; xac; x00; x00; xff] = POk [xe2; x82; xac] [xff].
Proof. vm_compute. reflexivity. Qed.

(* no NUL among the n bytes: all n are the content; a NUL right after them is not looked at *)
Example c19_ex_no_nul :
  zstring 4 [x45; x43; x55; x31; x00] = POk [x45; x43; x55; x31] [x00].
Proof. vm_compute. reflexivity. Qed.

(* bytes after the first NUL are dropped even if more text follows inside the field *)
Example c19_ex_after_nul :
  zstring 4 [x41; x00; x42; x43; x44] = POk [x41] [x44].
Proof. vm_compute. reflexivity. Qed.

Example c19_ex_size0 : zstring 0 [x61] = POk [] [x61] /\ zstring 0 [] = POk [] [].
Proof. split; vm_compute; reflexivity. Qed.

(* too short: hint 1 without a NUL, the exact shortfall with one *)
Example c19_ex_short :
  zstring 4 [x61; x62] = PIncomplete (Some 1) /\
  zstring 4 [x61; x00] = PIncomplete (Some 2) /\
  zstring 4 [] = PIncomplete (Some 1) /\
  len [x61; x62] < 4.
Proof. repeat split; vm_compute; reflexivity. Qed.

(* utf8_prefix: maximal well-formed prefix; surrogates, overlong forms and > U+10FFFF rejected *)
Example c19_ex_prefix :
  utf8_prefix [x61; xc3; xa9; xff; x62] = [x61; xc3; xa9] /\
  utf8_prefix [xed; xa0; x80] = [] /\
  utf8_prefix [xc0; x80] = [] /\
  utf8_prefix [xe0; x9f; xbf] = [] /\
  utf8_prefix [xf4; x90; x80; x80] = [] /\
  utf8_prefix [xf0; x9f; x98; x80; xf0; x9f; x98] = [xf0; x9f; x98; x80] /\
  utf8_prefix [xed; x9f; xbf; xee; x80; x80; xf4; x8f; xbf; xbf] =
    [xed; x9f; xbf; xee; x80; x80; xf4; x8f; xbf; xbf].
Proof. repeat split; vm_compute; reflexivity. Qed.

(* the hypothesis [wf_utf8 p] of maximality is satisfiable by a non-trivial prefix *)
Example c19_ex_wf : wf_utf8 [x61; xc3; xa9] /\ ~ wf_utf8 [x61; xc3].
Proof.
  split.
  - apply valid_utf8_iff. vm_compute. reflexivity.
  - intros W. apply valid_utf8_iff in W. vm_compute in W. discriminate.
Qed.

(* round trip used by the message-level proofs *)
Example c19_ex_put :
  zstring (len [x41; x42] + N.of_nat 2) ([x41; x42] ++ repeat x00 2 ++ [x07]) = POk [x41; x42] [x07].
Proof. vm_compute. reflexivity. Qed.
