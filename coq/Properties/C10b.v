(* C10b — `collect_statistics` (src/statistics.rs:45-100) visits each message of the stream exactly once, in
   order, with its decoded headers, and the standard collector fed by it yields the tally of C10.

   Model/Scan.v: [scan sigma s sh] is the loop of collect_statistics over the blocking reader
   (Model/Reader.v) on the byte stream [s], the source delivering the bytes according to the schedule
   [sigma] of read() results (short reads, Interrupted), in storage-header mode [sh]; the result is the list
   of Statistics handed to the collector, in the order of the calls, and how the scan ended.
   [statistic_full] has all six fields of `Statistic`; [statistic_of_full] projects to the fields the
   standard collector reads (Model/Stats.v [statistic]).  [collect_statistics] is the same loop with the
   StatisticInfoCollector of `mod common`, followed by collect().
   Spec/ScanSpec.v: [spec_scan] = cut the stream at the declared lengths and decode each piece. *)
From DltV.Model Require Import Bytes Nom Dlt Stats Reader Scan.
From DltV.Spec Require Import WellFormed StatsSpec ScanSpec.
From DltV.Proofs Require Import Roundtrip StatsProofs ScanProofs.
Open Scope N_scope.

(* ---------- each message exactly once, in order, with its headers; the scan ends with Ok ---------- *)
Theorem c10b_visits : forall sigma ms sh,
  Forall (fun m => wf_message m = true /\ has_storage m = sh) ms ->
  scan sigma (flat_map message_bytes ms) sh = (map statistic_full_of_message ms, ScanOk).
Proof. intros sigma. exact (scan_cap_visits default_cap sigma). Qed.
Check c10b_visits : forall sigma ms sh,
  Forall (fun m => wf_message m = true /\ has_storage m = sh) ms ->
  scan sigma (flat_map message_bytes ms) sh = (map statistic_full_of_message ms, ScanOk).
Print Assumptions c10b_visits.

(* ... for every BufReader capacity (DltMessageReader::with_capacity) *)
Theorem c10b_visits_cap : forall cap sigma ms sh,
  Forall (fun m => wf_message m = true /\ has_storage m = sh) ms ->
  scan_cap cap sigma (flat_map message_bytes ms) sh = (map statistic_full_of_message ms, ScanOk).
Proof. exact scan_cap_visits. Qed.
Check c10b_visits_cap : forall cap sigma ms sh,
  Forall (fun m => wf_message m = true /\ has_storage m = sh) ms ->
  scan_cap cap sigma (flat_map message_bytes ms) sh = (map statistic_full_of_message ms, ScanOk).
Print Assumptions c10b_visits_cap.

(* pins [statistic_full_of_message]: the message's own headers, its serialised payload, level and verbose
   flag read off the extended header *)
Theorem c10b_statistic_full_of_message : forall m,
  fs_storage (statistic_full_of_message m) = m_storage m /\
  fs_std (statistic_full_of_message m) = m_header m /\
  fs_ext (statistic_full_of_message m) = m_ext m /\
  fs_payload (statistic_full_of_message m) = payload_bytes (h_endian (m_header m)) (m_payload m) /\
  fs_level (statistic_full_of_message m)
    = match m_ext m with
      | Some x => match e_mtype x with MLog level => Some level | _ => None end
      | None => None
      end /\
  fs_verbose (statistic_full_of_message m) = match m_ext m with Some x => e_verbose x | None => false end.
Proof. intros. repeat split. Qed.
Check c10b_statistic_full_of_message : forall m,
  fs_storage (statistic_full_of_message m) = m_storage m /\
  fs_std (statistic_full_of_message m) = m_header m /\
  fs_ext (statistic_full_of_message m) = m_ext m /\
  fs_payload (statistic_full_of_message m) = payload_bytes (h_endian (m_header m)) (m_payload m) /\
  fs_level (statistic_full_of_message m)
    = match m_ext m with
      | Some x => match e_mtype x with MLog level => Some level | _ => None end
      | None => None
      end /\
  fs_verbose (statistic_full_of_message m) = match m_ext m with Some x => e_verbose x | None => false end.
Print Assumptions c10b_statistic_full_of_message.

(* the projection to the collector's view is Stats.statistic_of_message (the statistic of C10) *)
Theorem c10b_projection : forall m,
  statistic_of_full (statistic_full_of_message m) = statistic_of_message m.
Proof. exact statistic_of_full_of_message. Qed.
Check c10b_projection : forall m,
  statistic_of_full (statistic_full_of_message m) = statistic_of_message m.
Print Assumptions c10b_projection.

(* one iteration: the three header parsers on the bytes of a message *)
Theorem c10b_slice : forall m, wf_message m = true ->
  statistic_of_slice (has_storage m) (message_bytes m)
  = POk (statistic_full_of_message m) (payload_bytes (h_endian (m_header m)) (m_payload m)).
Proof. exact statistic_of_slice_message_bytes. Qed.
Check c10b_slice : forall m, wf_message m = true ->
  statistic_of_slice (has_storage m) (message_bytes m)
  = POk (statistic_full_of_message m) (payload_bytes (h_endian (m_header m)) (m_payload m)).
Print Assumptions c10b_slice.

(* ---------- the standard collector fed by the scan ---------- *)
Theorem c10b_collect : forall sigma ms sh,
  Forall (fun m => wf_message m = true /\ has_storage m = sh) ms ->
  collect_statistics sigma (flat_map message_bytes ms) sh
  = (collect_all (map statistic_of_message ms), ScanOk).
Proof.
  intros sigma ms sh Hall. rewrite collect_statistics_scan. unfold scan.
  rewrite (scan_cap_visits default_cap sigma ms sh Hall). cbn [fst snd].
  rewrite map_map, (map_ext _ _ statistic_of_full_of_message). reflexivity.
Qed.
Check c10b_collect : forall sigma ms sh,
  Forall (fun m => wf_message m = true /\ has_storage m = sh) ms ->
  collect_statistics sigma (flat_map message_bytes ms) sh
  = (collect_all (map statistic_of_message ms), ScanOk).
Print Assumptions c10b_collect.

(* ... is the independent tally of Spec/StatsSpec.v (c10_tally instantiated) *)
Theorem c10b_collect_tally : forall sigma ms sh,
  Forall (fun m => wf_message m = true /\ has_storage m = sh) ms ->
  let l := map statistic_of_message ms in
  let r := collect_statistics sigma (flat_map message_bytes ms) sh in
  snd r = ScanOk /\
  (forall k, NoDup (keys (map_of k (fst r)))) /\
  (forall k id,
     match lookup (map_of k (fst r)) id with
     | Some d => key_present k id l = true /\ forall b, ld_get b d = tally_lookup k id b l
     | None => key_present k id l = false
     end) /\
  si_non_verbose (fst r) = non_verbose_spec l.
Proof.
  intros sigma ms sh Hall. cbv zeta. rewrite (c10b_collect sigma ms sh Hall). cbn [fst snd].
  split; [reflexivity|]. apply collect_all_tally.
Qed.
Check c10b_collect_tally : forall sigma ms sh,
  Forall (fun m => wf_message m = true /\ has_storage m = sh) ms ->
  let l := map statistic_of_message ms in
  let r := collect_statistics sigma (flat_map message_bytes ms) sh in
  snd r = ScanOk /\
  (forall k, NoDup (keys (map_of k (fst r)))) /\
  (forall k id,
     match lookup (map_of k (fst r)) id with
     | Some d => key_present k id l = true /\ forall b, ld_get b d = tally_lookup k id b l
     | None => key_present k id l = false
     end) /\
  si_non_verbose (fst r) = non_verbose_spec l.
Print Assumptions c10b_collect_tally.

(* ---------- arbitrary streams: the scan does not depend on the schedule, it is the cuts ---------- *)
Theorem c10b_scan_spec : forall sigma s sh, scan sigma s sh = spec_scan s sh.
Proof. intros. apply (scan_cap_spec default_cap). Qed.
Check c10b_scan_spec : forall sigma s sh, scan sigma s sh = spec_scan s sh.
Print Assumptions c10b_scan_spec.

Theorem c10b_scan_cap_spec : forall cap sigma s sh, scan_cap cap sigma s sh = spec_scan s sh.
Proof. exact scan_cap_spec. Qed.
Check c10b_scan_cap_spec : forall cap sigma s sh, scan_cap cap sigma s sh = spec_scan s sh.
Print Assumptions c10b_scan_cap_spec.

(* the scan ends with Ok or Err: no panic, and the loop fuel of the model is never exhausted *)
Theorem c10b_end : forall sigma s sh,
  snd (scan sigma s sh) = ScanOk \/ exists e, snd (scan sigma s sh) = ScanErr e.
Proof.
  intros. rewrite c10b_scan_spec. apply spec_scan_fuel_end. rewrite Nat.add_1_r. apply Nat.lt_succ_diag_r.
Qed.
Check c10b_end : forall sigma s sh,
  snd (scan sigma s sh) = ScanOk \/ exists e, snd (scan sigma s sh) = ScanErr e.
Print Assumptions c10b_end.

(* for every stream the standard collector sees exactly the Statistics of the scan, in order, and the
   result of collect_statistics is the result of the scan *)
Theorem c10b_collect_scan : forall sigma s sh,
  collect_statistics sigma s sh
  = (collect_all (map statistic_of_full (fst (scan sigma s sh))), snd (scan sigma s sh)).
Proof. exact collect_statistics_scan. Qed.
Check c10b_collect_scan : forall sigma s sh,
  collect_statistics sigma s sh
  = (collect_all (map statistic_of_full (fst (scan sigma s sh))), snd (scan sigma s sh)).
Print Assumptions c10b_collect_scan.

(* ---------- examples ---------- *)
Definition ex_u8 : argument := mkArg (mkTI (KUnsigned BL8) SAscii false false) None None None (VU8 200).
(* verbose WARN log message with ECU id, timestamp, extended header, one argument *)
Definition ex_log (sh : option storage_header) : message :=
  mkMsg sh (mkStd 1 BE true 7 (Some [x45; x31]) None (Some 123456) 5)
        (Some (mkExt true 1 (MLog Warn) [x41; x50; x50] [x43; x54; x58])) (PVerbose [ex_u8]).
(* non-verbose message without extended header *)
Definition ex_nv (sh : option storage_header) : message :=
  mkMsg sh (mkStd 1 LE false 0 None None None 4) None (PNonVerbose 67305985 []).
(* control message *)
Definition ex_ctl (sh : option storage_header) : message :=
  mkMsg sh (mkStd 1 LE true 1 None (Some 5) None 3)
        (Some (mkExt false 0 (MControl CResponse) [x41] [x42])) (PControl CResponse [x00; x01]).
Definition ex_sh1 : storage_header := mkSH (mkTS 1700000000 999999) [x45; x43; x55].
Definition ex_sh2 : storage_header := mkSH (mkTS 1 2) [x58].

Definition ex_ms_sh : list message := [ex_log (Some ex_sh1); ex_nv (Some ex_sh2); ex_ctl (Some ex_sh1); ex_log (Some ex_sh2)].
Definition ex_ms : list message := [ex_log None; ex_nv None; ex_ctl None; ex_log None].

(* the hypothesis of c10b_visits / c10b_collect *)
Example c10b_ex_hyp :
  Forall (fun m => wf_message m = true /\ has_storage m = true) ex_ms_sh /\
  Forall (fun m => wf_message m = true /\ has_storage m = false) ex_ms.
Proof. split; repeat (constructor; [split; vm_compute; reflexivity|]); constructor. Qed.

(* by evaluation: one byte at a time with interruptions, short reads, full reads; both modes *)
Example c10b_ex_visits :
  scan [1; 0; 1; 1; 0; 0; 2; 1; 1; 1; 3; 1; 0; 1] (flat_map message_bytes ex_ms_sh) true
    = (map statistic_full_of_message ex_ms_sh, ScanOk) /\
  scan [] (flat_map message_bytes ex_ms_sh) true = (map statistic_full_of_message ex_ms_sh, ScanOk) /\
  scan [7; 0; 100] (flat_map message_bytes ex_ms) false = (map statistic_full_of_message ex_ms, ScanOk) /\
  scan_cap 3 [2; 0; 7] (flat_map message_bytes ex_ms) false = (map statistic_full_of_message ex_ms, ScanOk).
Proof. repeat split; vm_compute; reflexivity. Qed.

Example c10b_ex_statistic :
  statistic_full_of_message (ex_log (Some ex_sh1))
  = mkStatFull (Some Warn) (Some ex_sh1) (mkStd 1 BE true 7 (Some [x45; x31]) None (Some 123456) 5)
               (Some (mkExt true 1 (MLog Warn) [x41; x50; x50] [x43; x54; x58]))
               [x00; x00; x00; x41; xc8] true
  /\ statistic_of_full (statistic_full_of_message (ex_log (Some ex_sh1)))
     = mkStat (Some Warn) (Some [x45; x31]) (Some ([x41; x50; x50], [x43; x54; x58])) true.
Proof. split; vm_compute; reflexivity. Qed.

Example c10b_ex_collect :
  collect_statistics [3; 0; 1; 7] (flat_map message_bytes ex_ms_sh) true
  = (mkSI [ ([x41; x50; x50], mkLD 0 0 0 2 0 0 0 0); ([x41], mkLD 1 0 0 0 0 0 0 0) ]
          [ ([x43; x54; x58], mkLD 0 0 0 2 0 0 0 0); ([x42], mkLD 1 0 0 0 0 0 0 0) ]
          [ ([x45; x31], mkLD 0 0 0 2 0 0 0 0); (NONE_ID, mkLD 2 0 0 0 0 0 0 0) ]
          true, ScanOk).
Proof. vm_compute. reflexivity. Qed.

(* what happens outside the hypothesis (all by c10b_scan_spec the same for every schedule):
   trailing bytes shorter than a header are ignored (Ok); a truncated last message is an Unrecoverable
   error after the complete ones were visited; a declared length below 4 is a ParsingHickup; the wrong mode
   (stream without storage headers read with storage headers) fails in the first piece *)
Example c10b_ex_errors :
  scan [2; 0] (flat_map message_bytes ex_ms ++ [x01; x02; x03]) false = (map statistic_full_of_message ex_ms, ScanOk) /\
  scan [2; 0] (flat_map message_bytes ex_ms ++ firstn 9 (message_bytes (ex_log None))) false
    = (map statistic_full_of_message ex_ms, ScanErr EUnrecoverable) /\
  scan [2; 0] (message_bytes (ex_nv None) ++ [x20; x00; x00; x03] ++ message_bytes (ex_nv None)) false
    = ([statistic_full_of_message (ex_nv None)], ScanErr EHickup) /\
  (exists e, scan [] (flat_map message_bytes ex_ms) true = ([], ScanErr e)).
Proof. repeat split; try (vm_compute; reflexivity). eexists. vm_compute. reflexivity. Qed.
