(* C14 — header-type, message-info and type-info codes decode and re-encode consistently. *)
From DltV.Model Require Import Bytes Dlt.
From DltV.Proofs Require Import Codes.
Open Scope N_scope.

(* all 256 header-type bytes: decode (as dlt_standard_header does) then re-encode gives the same byte,
   and every field is the bit the DLT layout prescribes *)
Theorem c14_htyp : forall b, b < 256 -> htyp_roundtrip b = true /\ htyp_layout b = true.
Proof. exact htyp_all. Qed.
Check c14_htyp : forall b, b < 256 -> htyp_roundtrip b = true /\ htyp_layout b = true.
Print Assumptions c14_htyp.

(* all 256 message-info bytes *)
Theorem c14_msin : forall b, b < 256 ->
  msin_encode (message_type_decode b) (msin_verbose b) = b /\
  msin_verbose b = N.testbit b 0 /\
  message_type_decode b = spec_mtype ((b / 2) mod 8) (b / 16).
Proof. exact msin_all. Qed.
Check c14_msin : forall b, b < 256 ->
  msin_encode (message_type_decode b) (msin_verbose b) = b /\
  msin_verbose b = N.testbit b 0 /\
  message_type_decode b = spec_mtype ((b / 2) mod 8) (b / 16).
Print Assumptions c14_msin.

(* every type-info word (no size bound at all, in particular all 2^32): decoding refuses exactly the
   words that do not name one supported kind with a supported width; otherwise the description
   re-encodes to a word that decodes to the same description and differs from the original only in
   bits the format leaves unused for that kind *)
Theorem c14_type_info : forall w, ti_ok w.
Proof.
  intros w. unfold ti_ok. pose proof (ti_decode_kind w) as D. pose proof (kind_checked w) as C.
  destruct (ti_kind_decode w) as [k|]; cbn [option_map] in D; rewrite D; [|exact C].
  destruct (ti_roundtrip _ (ti_coding_wf w k)) as [R _].
  split; [apply C|]. split; [exact R|].
  intros i X. cbn [ti_flags ti_kind_of]. destruct (unused_bit k i) eqn:U; [reflexivity|].
  rewrite N.lxor_spec, (ti_decode_bits _ _ _ _ R D U), xorb_nilpotent in X. discriminate.
Qed.
Check c14_type_info : forall w,
  match ti_decode w with
  | None => names_supported w = false
  | Some t =>
    names_supported w = true
    /\ ti_decode (ti_encode t) = Some t
    /\ (forall i, N.testbit (N.lxor (ti_encode t) w) i = true -> unused_bit (ti_kind_of t) i = true)
  end.
Print Assumptions c14_type_info.

(* decoding looks at the low 18 bits only — this is what makes the exhaustive correspondence over
   2^32 words reducible to a table of 2^18 entries *)
Theorem c14_ti_low : forall w, ti_decode w = ti_decode (w mod 2 ^ 18).
Proof.
  intros w. rewrite <- N.land_ones, (ti_decode_kind (N.land w _)), (ti_decode_kind w).
  unfold ti_kind_decode. rewrite (land_mask w _ 8191) by reflexivity.
  destruct (option_map ti_kind_of _); [|reflexivity]. cbn [option_map]. unfold ti_flags.
  now rewrite !land_mask, shiftr_land_mask by reflexivity.
Qed.
Check c14_ti_low : forall w, ti_decode w = ti_decode (w mod 2 ^ 18).
Print Assumptions c14_ti_low.

(* the same in both byte orders up to byte reversal *)
Theorem c14_byte_orders : forall t bs,
  ti_bytes BE t = rev (ti_bytes LE t) /\ get_uint BE (rev bs) = get_uint LE bs.
Proof. intros t bs. split; [reflexivity|]. cbn [get_uint]. now rewrite rev_involutive. Qed.
Check c14_byte_orders : forall t bs,
  ti_bytes BE t = rev (ti_bytes LE t) /\ get_uint BE (rev bs) = get_uint LE bs.
Print Assumptions c14_byte_orders.

Example c14_example_accept : ti_decode 0x00000823 = Some (mkTI (KSigned BL32) SAscii true false)
  /\ names_supported 0x00000823 = true.
Proof. split; reflexivity. Qed.
Example c14_example_refuse : ti_decode 0x00000130 = None /\ names_supported 0x00000130 = false.
Proof. split; reflexivity. Qed.
