(* C07 — the blocking reader equals cutting the stream at the declared lengths and parsing each piece,
   for every fragmentation / interruption schedule of the source; truncation; no panic.
   Model: Model/Reader.v (the REPAIRED read.rs; the pre-repair code, Reader.next_message_slice_pinned, is refuted by c07_pinned_refuted).
   Spec: Spec/ReaderSpec.v. *)
From Coq Require Import Lia.
From DltV.Model Require Import Bytes Nom Parse Reader.
From DltV.Spec Require Import ReaderSpec.
From DltV.Proofs Require Import ReaderProofs ReaderMml.
Open Scope N_scope.

(* the delivered sequence is independent of the schedule, equals the cuts, and the loop ends *)
Theorem c07_fragmentation : forall sigma s f sh,
  reader_run_default sigma s f sh = (spec_run s f sh, true).
Proof. intros. apply run_start_default, br_read_exact_spec. Qed.
Check c07_fragmentation : forall sigma s f sh,
  reader_run_default sigma s f sh = (spec_run s f sh, true).
Print Assumptions c07_fragmentation.

(* ... for every BufReader capacity (small ones exercise the bypass branch and multiple refills) *)
Theorem c07_fragmentation_cap : forall cap sigma s f sh,
  reader_run_cap cap sigma s f sh = (spec_run s f sh, true).
Proof. intros. apply run_start_default, br_read_exact_spec. Qed.
Check c07_fragmentation_cap : forall cap sigma s f sh,
  reader_run_cap cap sigma s f sh = (spec_run s f sh, true).
Print Assumptions c07_fragmentation_cap.

(* the reader adds no panic of its own, whatever the bytes (including declared lengths below 4) *)
Theorem c07_no_panic : forall sigma s f sh,
  (forall bs, dlt_message bs f sh <> PPanic) ->
  ~ In OPanic (fst (reader_run_default sigma s f sh)).
Proof.
  intros sigma s f sh Hd. rewrite c07_fragmentation. cbn [fst]. apply spec_run_fuel_no_panic, Hd.
Qed.
Check c07_no_panic : forall sigma s f sh,
  (forall bs, dlt_message bs f sh <> PPanic) ->
  ~ In OPanic (fst (reader_run_default sigma s f sh)).
Print Assumptions c07_no_panic.

(* debug_assert!(total_len <= self.buffer.len()) holds for every declared length *)
Theorem c07_scratch_fits : forall sh v, hdr_len sh <= len v ->
  storage_len sh + declared_len sh v <= len new_scratch.
Proof.
  intros sh v _. rewrite len_new_scratch. pose proof (declared_len_lt sh v).
  assert (message_max_len = 65551) by reflexivity.
  destruct sh; cbn [storage_len]; lia.
Qed.
Check c07_scratch_fits : forall sh v, hdr_len sh <= len v ->
  storage_len sh + declared_len sh v <= len new_scratch.
Print Assumptions c07_scratch_fits.

(* the pieces: laid out from offset 0, one behind the other, inside the stream, each at least a header *)
Theorem c07_cuts_layout : forall s sh,
  let cuts := spec_cuts s sh in
  Forall (fun c => hdr_len sh <= snd c /\ fst c + snd c <= len s) cuts
  /\ (forall i c d, nth_error cuts i = Some c -> nth_error cuts (S i) = Some d -> fst d = fst c + snd c)
  /\ (forall c, nth_error cuts 0 = Some c -> fst c = 0).
Proof. intros s sh. exact (cuts_from_layout sh s 0). Qed.
Check c07_cuts_layout : forall s sh,
  let cuts := spec_cuts s sh in
  Forall (fun c => hdr_len sh <= snd c /\ fst c + snd c <= len s) cuts
  /\ (forall i c d, nth_error cuts i = Some c -> nth_error cuts (S i) = Some d -> fst d = fst c + snd c)
  /\ (forall c, nth_error cuts 0 = Some c -> fst c = 0).
Print Assumptions c07_cuts_layout.

(* the i-th outcome is a function of the bytes of the i-th piece alone; behind the pieces comes nothing
   or one Unrecoverable error; a panic of dlt_message ends the sequence *)
Theorem c07_run_by_cuts : forall s f sh,
  exists tail, (tail = [] \/ tail = [OErr EUnrecoverable])
    /\ spec_run s f sh
       = until_panic (map (fun c => piece_outcome f sh (piece_at s c)) (spec_cuts s sh) ++ tail).
Proof. intros s f sh. apply (spec_run_by_cuts_from f sh s s 0), dropN_0. Qed.
Check c07_run_by_cuts : forall s f sh,
  exists tail, (tail = [] \/ tail = [OErr EUnrecoverable])
    /\ spec_run s f sh
       = until_panic (map (fun c => piece_outcome f sh (piece_at s c)) (spec_cuts s sh) ++ tail).
Print Assumptions c07_run_by_cuts.

(* truncation after k bytes: the pieces are those of the full stream that end at or before k, their
   outcomes are delivered unchanged, and what follows is end-of-stream or one Unrecoverable error —
   never a message built from a cut piece *)
Theorem c07_truncation : forall s k f sh,
  let done := filter (cut_within k) (spec_cuts s sh) in
  spec_cuts (firstn (N.to_nat k) s) sh = done
  /\ exists tail, (tail = [] \/ tail = [OErr EUnrecoverable])
     /\ spec_run (firstn (N.to_nat k) s) f sh = firstn (length done) (spec_run s f sh) ++ tail.
Proof. intros s k f sh. rewrite <- takeN_firstn. exact (truncation_from f sh s k 0). Qed.
Check c07_truncation : forall s k f sh,
  let done := filter (cut_within k) (spec_cuts s sh) in
  spec_cuts (firstn (N.to_nat k) s) sh = done
  /\ exists tail, (tail = [] \/ tail = [OErr EUnrecoverable])
     /\ spec_run (firstn (N.to_nat k) s) f sh = firstn (length done) (spec_run s f sh) ++ tail.
Print Assumptions c07_truncation.

Theorem c07_truncation_reader : forall sigma sigma' s k f sh,
  exists tail, (tail = [] \/ tail = [OErr EUnrecoverable])
    /\ reader_run_default sigma (firstn (N.to_nat k) s) f sh
       = (firstn (length (filter (cut_within k) (spec_cuts s sh))) (fst (reader_run_default sigma' s f sh)) ++ tail,
          true).
Proof.
  intros. rewrite !c07_fragmentation. cbn [fst].
  destruct (c07_truncation s k f sh) as (_ & tail & Ht & E).
  exists tail. split; [exact Ht|]. now rewrite E.
Qed.
Check c07_truncation_reader : forall sigma sigma' s k f sh,
  exists tail, (tail = [] \/ tail = [OErr EUnrecoverable])
    /\ reader_run_default sigma (firstn (N.to_nat k) s) f sh
       = (firstn (length (filter (cut_within k) (spec_cuts s sh))) (fst (reader_run_default sigma' s f sh)) ++ tail,
          true).
Print Assumptions c07_truncation_reader.

(* the pre-repair reader panics on a declared length below the header length *)
Theorem c07_pinned_refuted :
  reader_run_pinned [] [x00; x00; x00; x02] None false = ([OPanic], true).
Proof. vm_compute. reflexivity. Qed.
Check c07_pinned_refuted :
  reader_run_pinned [] [x00; x00; x00; x02] None false = ([OPanic], true).
Print Assumptions c07_pinned_refuted.

(* ---------- examples ---------- *)
(* ex_m1 (8 bytes), ex_m2 (10 bytes), ex_sh (storage header): Spec/ReaderSpec.v;
   kinds: 0 = message, 2 = ParsingHickup, 3 = Unrecoverable, 4 = panic *)

(* full reads; one byte at a time with interruptions; mixed short reads *)
Example c07_example_schedules :
  let s := ex_m1 ++ ex_m2 in
  let r := reader_run_default [] s None false in
  reader_run_default [1; 0; 1; 1; 0; 0; 1; 1; 1; 1; 1; 1; 1; 1; 0; 1; 1; 1; 1; 1; 1; 1] s None false = r
  /\ reader_run_default [3; 0; 0; 2; 5; 0; 1; 100] s None false = r
  /\ reader_run_cap 3 [2; 0; 7] s None false = r
  /\ kinds r = ([0; 0], true)
  /\ spec_cuts s false = [(0, 8); (8, 10)].
Proof. vm_compute. repeat split; reflexivity. Qed.

Example c07_example_storage_header :
  let s := ex_sh ++ ex_m1 ++ ex_sh ++ ex_m2 in
  kinds (reader_run_default [5; 0; 30; 1] s None true) = ([0; 0], true)
  /\ spec_cuts s true = [(0, 24); (24, 26)].
Proof. vm_compute. split; reflexivity. Qed.

(* a declared length of 2: an error, and the reader goes on behind the 4 header bytes *)
Example c07_example_short_length :
  let s := ex_m1 ++ [x00; x00; x00; x02] ++ ex_m2 in
  kinds (reader_run_default [1; 0; 2] s None false) = ([0; 2; 0], true)
  /\ kinds (reader_run_pinned [1; 0; 2] s None false) = ([0; 4], true).
Proof. vm_compute. split; reflexivity. Qed.

(* truncation inside the second message: behind its header (error), inside its header (end of stream) *)
Example c07_example_truncated :
  kinds (reader_run_default [4; 0; 1] (ex_m1 ++ firstn 7 ex_m2) None false) = ([0; 3], true)
  /\ kinds (reader_run_default [4; 0; 1] (ex_m1 ++ firstn 3 ex_m2) None false) = ([0], true)
  /\ kinds (reader_run_default [] (ex_m1 ++ ex_m2) None false) = ([0; 0], true).
Proof. vm_compute. repeat split; reflexivity. Qed.

(* the hypothesis of c07_no_panic is about dlt_message alone; this instance shows the conclusion on a
   stream of hostile length fields *)
Example c07_example_no_panic :
  ~ In OPanic (fst (reader_run_default [1; 0; 1] [x00; x00; x00; x00; xff; xff; x00; x03; x20; x00; xff; xff] None false)).
Proof. vm_compute. intros [H|[H|[H|[]]]]; discriminate. Qed.
