(* C05 — "For every well-formed message and every proper prefix of its serialised bytes, the message
   parser reports 'incomplete' rather than a message or a hard error, so a streaming caller may
   simply wait for more data; the message skipper does the same for every non-empty proper prefix
   (on empty input it reports that there is no message).  When the report carries a number of needed
   bytes, that number is at least 1 and never larger than the number of bytes actually missing."

   [firstn k (message_bytes m)] with k < length is the cut at position k; the filter [f] is
   arbitrary; the storage-header mode is the one the message was written in.
   [hint_ok None _ = True], [hint_ok (Some h) missing = 1 <= h <= missing]  (Proofs/Stable.v). *)
From Coq Require Import Lia.
From DltV.Model Require Import Bytes Nom Dlt Parse.
From DltV.Spec Require Import WellFormed.
From DltV.Proofs Require Import Stable Roundtrip Prefix.
Open Scope N_scope.

Theorem c05_message : forall m f k, wf_message m = true -> (k < length (message_bytes m))%nat ->
  exists n, dlt_message (firstn k (message_bytes m)) f (has_storage m) = PIncomplete n
            /\ hint_ok n (len (message_bytes m) - N.of_nat k).
Proof.
  intros m f k H Hk. destruct (proper_prefix_firstn k _ Hk) as [Hp Hl].
  destruct (message_prefix m f _ H Hp) as (n & Hn & Hh). exists n. now rewrite <- Hl.
Qed.
Check c05_message : forall m f k, wf_message m = true -> (k < length (message_bytes m))%nat ->
  exists n, dlt_message (firstn k (message_bytes m)) f (has_storage m) = PIncomplete n
            /\ hint_ok n (len (message_bytes m) - N.of_nat k).
Print Assumptions c05_message.

Theorem c05_consume : forall m k, wf_message m = true -> has_storage m = true ->
  (0 < k < length (message_bytes m))%nat ->
  exists n, dlt_consume_msg (firstn k (message_bytes m)) = PIncomplete n
            /\ hint_ok n (len (message_bytes m) - N.of_nat k).
Proof.
  intros m k.
  intros H Hst [Hk0 Hk]. destruct (proper_prefix_firstn k _ Hk) as [Hp Hl].
  assert (Hne : firstn k (message_bytes m) <> []).
  { intros E. rewrite E in Hl. cbn in Hl. lia. }
  destruct (consume_prefix m _ H Hst Hne Hp) as (n & Hn & Hh). exists n. now rewrite <- Hl.
Qed.
Check c05_consume : forall m k, wf_message m = true -> has_storage m = true ->
  (0 < k < length (message_bytes m))%nat ->
  exists n, dlt_consume_msg (firstn k (message_bytes m)) = PIncomplete n
            /\ hint_ok n (len (message_bytes m) - N.of_nat k).
Print Assumptions c05_consume.

Theorem c05_consume_empty : dlt_consume_msg [] = POk None [].
Proof.
  reflexivity.
Qed.
Check c05_consume_empty : dlt_consume_msg [] = POk None [].
Print Assumptions c05_consume_empty.

(* pins hint_ok and has_storage *)
Theorem c05_hint_ok : forall n missing,
  hint_ok n missing = match n with None => True | Some h => 1 <= h <= missing end.
Proof. reflexivity. Qed.
Check c05_hint_ok : forall n missing,
  hint_ok n missing = match n with None => True | Some h => 1 <= h <= missing end.
Print Assumptions c05_hint_ok.
Theorem c05_has_storage : forall m,
  has_storage m = match m_storage m with Some _ => true | None => false end.
Proof. reflexivity. Qed.
Check c05_has_storage : forall m,
  has_storage m = match m_storage m with Some _ => true | None => false end.
Print Assumptions c05_has_storage.

(* the same for an arbitrary proper prefix given as a list, and the behaviour of the storage header
   alone: fewer than 16 bytes are Incomplete(Unknown) whatever they are *)
Theorem c05_message_prefix : forall m f c', wf_message m = true -> proper_prefix c' (message_bytes m) ->
  exists n, dlt_message c' f (has_storage m) = PIncomplete n /\ hint_ok n (len (message_bytes m) - len c').
Proof. exact message_prefix. Qed.
Check c05_message_prefix : forall m f c', wf_message m = true -> proper_prefix c' (message_bytes m) ->
  exists n, dlt_message c' f (has_storage m) = PIncomplete n /\ hint_ok n (len (message_bytes m) - len c').
Print Assumptions c05_message_prefix.
Theorem c05_storage_short : forall c, len c < 16 -> dlt_storage_header c = PIncomplete None.
Proof. exact storage_header_short. Qed.
Check c05_storage_short : forall c, len c < 16 -> dlt_storage_header c = PIncomplete None.
Print Assumptions c05_storage_short.

(* ---------- non-vacuity ---------- *)
Definition ex_m (e : endian) (sh : bool) : message :=
  message_new
    (mkCfg 1 9 e (Some [x45; x31]) None (Some 5)
       (PVerbose [ mkArg (mkTI KString SUtf8 true false) (Some [x6e]) None None (VString [x68; x69]);
                   mkArg (mkTI (KUnsigned BL128) SAscii false false) None None None (VU128 7) ])
       (Some (mkExtCfg (MLog Info) [x41] [x43])))
    (if sh then Some (mkSH (mkTS 1 2) [x45; x31]) else None).

(* the hypotheses hold for a 69-byte message with storage header; cut inside the 128-bit value *)
Example c05_ex_hyps :
  wf_message (ex_m BE true) = true /\ has_storage (ex_m BE true) = true /\
  (0 < 60 < length (message_bytes (ex_m BE true)))%nat.
Proof. repeat split; try (vm_compute; reflexivity); apply PeanoNat.Nat.ltb_lt; vm_compute; reflexivity. Qed.

(* every cut of the example messages, evaluated: Incomplete with an admissible hint *)
Definition hint_okb (n : option N) (missing : N) : bool :=
  match n with None => true | Some h => (1 <=? h) && (h <=? missing) end.
Definition all_cuts_ok (m : message) : bool :=
  forallb (fun k =>
    match dlt_message (firstn k (message_bytes m)) None (has_storage m) with
    | PIncomplete n => hint_okb n (len (message_bytes m) - N.of_nat k)
    | _ => false
    end) (seq 0 (length (message_bytes m))).
Definition all_consume_cuts_ok (m : message) : bool :=
  forallb (fun k =>
    match dlt_consume_msg (firstn k (message_bytes m)) with
    | PIncomplete n => hint_okb n (len (message_bytes m) - N.of_nat k)
    | _ => false
    end) (seq 1 (length (message_bytes m) - 1)).
Example c05_ex_cuts :
  all_cuts_ok (ex_m BE true) = true /\ all_cuts_ok (ex_m LE false) = true /\
  all_consume_cuts_ok (ex_m LE true) = true.
Proof. vm_compute. repeat split. Qed.
(* three kinds of verdict occur: Unknown inside the storage header, a field parser's hint inside a
   header, the exact shortfall behind the headers *)
Example c05_ex_verdicts :
  let bs := message_bytes (ex_m BE true) in
  dlt_message (firstn 10 bs) None true = PIncomplete None /\
  dlt_message (firstn 17 bs) None true = PIncomplete (Some 1) /\
  dlt_message (firstn 60 bs) None true = PIncomplete (Some (len bs - 60)).
Proof. vm_compute. repeat split. Qed.
