(* C10 — the standard statistics collector equals an independent tally; the ECU totals add up to
   the number of messages; merging the statistics of the parts of a stream, in any order and
   grouping, gives the statistics of the whole (up to the unspecified entry order of the maps). *)
From Coq Require Import Permutation.
From DltV.Model Require Import Bytes Dlt Stats.
From DltV.Spec Require Import StatsSpec.
From DltV.Proofs Require Import BytesBasics StatsProofs.
Open Scope N_scope.

(* key comparison of the model is equality of the id bytes *)
Theorem c10_bytes_eqb : forall a b : list byte, bytes_eqb a b = true <-> a = b.
Proof. exact bytes_eqb_eq. Qed.
Check c10_bytes_eqb : forall a b : list byte, bytes_eqb a b = true <-> a = b.
Print Assumptions c10_bytes_eqb.

(* ---------- the result is the tally ---------- *)
Theorem c10_tally : forall l : list statistic,
  (forall k, NoDup (keys (map_of k (collect_all l)))) /\
  (forall k id,
     match lookup (map_of k (collect_all l)) id with
     | Some d => key_present k id l = true /\ forall b, ld_get b d = tally_lookup k id b l
     | None => key_present k id l = false
     end) /\
  si_non_verbose (collect_all l) = non_verbose_spec l.
Proof. exact collect_all_tally. Qed.
Check c10_tally : forall l : list statistic,
  (forall k, NoDup (keys (map_of k (collect_all l)))) /\
  (forall k id,
     match lookup (map_of k (collect_all l)) id with
     | Some d => key_present k id l = true /\ forall b, ld_get b d = tally_lookup k id b l
     | None => key_present k id l = false
     end) /\
  si_non_verbose (collect_all l) = non_verbose_spec l.
Print Assumptions c10_tally.

(* ---------- the ECU totals add up to the number of messages ---------- *)
Theorem c10_total : forall l : list statistic,
  map_total (si_ecu (collect_all l)) = N.of_nat (length l).
Proof. exact collect_all_total. Qed.
Check c10_total : forall l : list statistic,
  map_total (si_ecu (collect_all l)) = N.of_nat (length l).
Print Assumptions c10_total.

(* [map_total] is the sum over all entries of all eight buckets *)
Theorem c10_total_is_bucket_sum : forall m : idmap,
  map_total m
  = fold_right (fun e acc => fold_right (fun b acc' => ld_get b (snd e) + acc') 0 all_buckets + acc) 0 m.
Proof.
  induction m as [|[k d] r IH]; cbn [map_total fold_right snd].
  - reflexivity.
  - rewrite IH, ld_total_buckets. reflexivity.
Qed.
Check c10_total_is_bucket_sum : forall m : idmap,
  map_total m
  = fold_right (fun e acc => fold_right (fun b acc' => ld_get b (snd e) + acc') 0 all_buckets + acc) 0 m.
Print Assumptions c10_total_is_bucket_sum.

Theorem c10_total_messages : forall ms : list message,
  map_total (si_ecu (collect_messages ms)) = N.of_nat (length ms).
Proof.
  intros ms. unfold collect_messages. rewrite collect_all_total, map_length. reflexivity.
Qed.
Check c10_total_messages : forall ms : list message,
  map_total (si_ecu (collect_messages ms)) = N.of_nat (length ms).
Print Assumptions c10_total_messages.

(* ---------- merging two parts gives the whole ---------- *)
Theorem c10_merge : forall a b : list statistic,
  stat_equiv (merge (collect_all a) (collect_all b)) (collect_all (a ++ b)).
Proof. exact merge_collect_all. Qed.
Check c10_merge : forall a b : list statistic,
  stat_equiv (merge (collect_all a) (collect_all b)) (collect_all (a ++ b)).
Print Assumptions c10_merge.

Theorem c10_merge_messages : forall a b : list message,
  stat_equiv (merge (collect_messages a) (collect_messages b)) (collect_messages (a ++ b)).
Proof.
  intros a b. unfold collect_messages. rewrite map_app. apply merge_collect_all.
Qed.
Check c10_merge_messages : forall a b : list message,
  stat_equiv (merge (collect_messages a) (collect_messages b)) (collect_messages (a ++ b)).
Print Assumptions c10_merge_messages.

(* ---------- algebra of merge up to stat_equiv ---------- *)
Theorem c10_merge_assoc : forall a b c, stat_wf a -> stat_wf b -> stat_wf c ->
  stat_equiv (merge (merge a b) c) (merge a (merge b c)).
Proof.
  intros a b c Wa Wb Wc. pose proof (merge_wf b c Wb) as Wbc.
  apply stat_equiv_intro; try (repeat apply merge_wf; assumption).
  - intros k id. rewrite !lookup_merge by assumption. apply opt_merge_assoc.
  - unfold merge. cbn [si_non_verbose]. symmetry. apply orb_assoc.
Qed.
Check c10_merge_assoc : forall a b c, stat_wf a -> stat_wf b -> stat_wf c ->
  stat_equiv (merge (merge a b) c) (merge a (merge b c)).
Print Assumptions c10_merge_assoc.

Theorem c10_merge_comm : forall a b, stat_wf a -> stat_wf b ->
  stat_equiv (merge a b) (merge b a).
Proof.
  intros a b Wa Wb. apply stat_equiv_intro; try (apply merge_wf; assumption).
  - intros k id. rewrite !lookup_merge by assumption. apply opt_merge_comm.
  - unfold merge. cbn [si_non_verbose]. apply orb_comm.
Qed.
Check c10_merge_comm : forall a b, stat_wf a -> stat_wf b ->
  stat_equiv (merge a b) (merge b a).
Print Assumptions c10_merge_comm.

Theorem c10_merge_neutral : forall a, stat_wf a ->
  stat_equiv (merge stat_info_new a) a /\ stat_equiv (merge a stat_info_new) a.
Proof.
  intros a W. split; [|rewrite merge_new_r_eq; apply stat_equiv_refl, W].
  apply stat_equiv_intro; [apply merge_wf, stat_info_new_wf|exact W| |reflexivity].
  intros k id. rewrite lookup_merge by exact W. destruct k; reflexivity.
Qed.
Check c10_merge_neutral : forall a, stat_wf a ->
  stat_equiv (merge stat_info_new a) a /\ stat_equiv (merge a stat_info_new) a.
Print Assumptions c10_merge_neutral.

(* ---------- stat_equiv is an equivalence on results with unique keys; merge respects it;
   every collector result has unique keys; equivalent results have the same entries ---------- *)
Theorem c10_equiv_refl : forall a, stat_wf a -> stat_equiv a a.
Proof. exact stat_equiv_refl. Qed.
Check c10_equiv_refl : forall a, stat_wf a -> stat_equiv a a.
Print Assumptions c10_equiv_refl.

Theorem c10_equiv_sym : forall a b, stat_equiv a b -> stat_equiv b a.
Proof. exact stat_equiv_sym. Qed.
Check c10_equiv_sym : forall a b, stat_equiv a b -> stat_equiv b a.
Print Assumptions c10_equiv_sym.

Theorem c10_equiv_trans : forall a b c, stat_equiv a b -> stat_equiv b c -> stat_equiv a c.
Proof. exact stat_equiv_trans. Qed.
Check c10_equiv_trans : forall a b c, stat_equiv a b -> stat_equiv b c -> stat_equiv a c.
Print Assumptions c10_equiv_trans.

Theorem c10_merge_respects : forall a a' b b',
  stat_equiv a a' -> stat_equiv b b' -> stat_equiv (merge a b) (merge a' b').
Proof. exact merge_equiv. Qed.
Check c10_merge_respects : forall a a' b b',
  stat_equiv a a' -> stat_equiv b b' -> stat_equiv (merge a b) (merge a' b').
Print Assumptions c10_merge_respects.

Theorem c10_collect_wf : forall l : list statistic, stat_wf (collect_all l).
Proof. exact collect_all_wf. Qed.
Check c10_collect_wf : forall l : list statistic, stat_wf (collect_all l).
Print Assumptions c10_collect_wf.

Theorem c10_merge_wf : forall a b, stat_wf a -> stat_wf (merge a b).
Proof. exact merge_wf. Qed.
Check c10_merge_wf : forall a b, stat_wf a -> stat_wf (merge a b).
Print Assumptions c10_merge_wf.

Theorem c10_equiv_entries : forall a b, stat_equiv a b ->
  forall k, Permutation (map_of k a) (map_of k b).
Proof.
  intros a b [H _] k. destruct (H k) as (Na & Nb & L). apply lookup_ext_Permutation; assumption.
Qed.
Check c10_equiv_entries : forall a b, stat_equiv a b ->
  forall k, Permutation (map_of k a) (map_of k b).
Print Assumptions c10_equiv_entries.

(* ---------- the result does not depend on the order of the messages ---------- *)
Theorem c10_perm : forall l l' : list statistic, Permutation l l' ->
  stat_equiv (collect_all l) (collect_all l').
Proof. exact collect_all_perm. Qed.
Check c10_perm : forall l l' : list statistic, Permutation l l' ->
  stat_equiv (collect_all l) (collect_all l').
Print Assumptions c10_perm.

(* ---------- any split, any order, any grouping ---------- *)
(* a merge tree evaluates to the statistics of its leaves read left to right *)
Theorem c10_any_tree : forall t : mtree, stat_equiv (eval_tree t) (collect_all (flatten t)).
Proof. exact eval_tree_flatten. Qed.
Check c10_any_tree : forall t : mtree, stat_equiv (eval_tree t) (collect_all (flatten t)).
Print Assumptions c10_any_tree.

(* two merge trees over the same messages (in any order, split and grouped in any way) agree *)
Theorem c10_any_two_trees : forall t t' : mtree, Permutation (flatten t) (flatten t') ->
  stat_equiv (eval_tree t) (eval_tree t').
Proof.
  intros t t' P.
  eapply stat_equiv_trans; [apply eval_tree_flatten|].
  eapply stat_equiv_trans; [apply collect_all_perm; exact P|].
  apply stat_equiv_sym, eval_tree_flatten.
Qed.
Check c10_any_two_trees : forall t t' : mtree, Permutation (flatten t) (flatten t') ->
  stat_equiv (eval_tree t) (eval_tree t').
Print Assumptions c10_any_two_trees.

(* the corollary in the words of the property: split a stream into [parts] (at message
   boundaries), take the parts in any order ([Permutation]) and merge them in any grouping
   (any tree with these leaves): the result is the statistics of the whole stream *)
Theorem c10_split_any : forall (parts : list (list statistic)) (t : mtree),
  Permutation (leaves t) parts -> stat_equiv (eval_tree t) (collect_all (concat parts)).
Proof. exact eval_tree_parts. Qed.
Check c10_split_any : forall (parts : list (list statistic)) (t : mtree),
  Permutation (leaves t) parts -> stat_equiv (eval_tree t) (collect_all (concat parts)).
Print Assumptions c10_split_any.

Theorem c10_split_any_messages : forall (parts : list (list message)) (t : mtree),
  Permutation (leaves t) (map (map statistic_of_message) parts) ->
  stat_equiv (eval_tree t) (collect_messages (concat parts)).
Proof.
  intros parts t P. unfold collect_messages. rewrite concat_map.
  apply eval_tree_parts. exact P.
Qed.
Check c10_split_any_messages : forall (parts : list (list message)) (t : mtree),
  Permutation (leaves t) (map (map statistic_of_message) parts) ->
  stat_equiv (eval_tree t) (collect_messages (concat parts)).
Print Assumptions c10_split_any_messages.

(* ---------- examples: the definitions compute and the hypotheses are satisfiable ---------- *)
Definition ex_ecu1 : list byte := [x45; x43; x55; x31].   (* "ECU1" *)
Definition ex_app : list byte := [x41; x50; x50].         (* "APP" *)
Definition ex_app2 : list byte := [x41; x50; x32].        (* "AP2" *)
Definition ex_ctx : list byte := [x43; x54; x58].         (* "CTX" *)

Definition ex_msg (ecu : option (list byte)) (x : option ext_header) : message :=
  mkMsg None
    (mkStd 1 BE (match x with Some _ => true | None => false end) 0 ecu None None 0)
    x (PNonVerbose 0 []).

Definition ex_stream : list message :=
  [ ex_msg (Some ex_ecu1) (Some (mkExt true 0 (MLog Info) ex_app ex_ctx));
    ex_msg None None;
    ex_msg (Some ex_ecu1) (Some (mkExt true 0 (MLog (LInvalid 9)) ex_app2 ex_ctx));
    ex_msg None (Some (mkExt false 0 (MControl CRequest) ex_app ex_ctx));
    ex_msg (Some ex_ecu1) (Some (mkExt true 0 (MLog Info) ex_app ex_ctx)) ].

Definition ex_stats : list statistic := map statistic_of_message ex_stream.

Example c10_ex_statistics : ex_stats =
  [ mkStat (Some Info) (Some ex_ecu1) (Some (ex_app, ex_ctx)) true;
    mkStat None None None false;
    mkStat (Some (LInvalid 9)) (Some ex_ecu1) (Some (ex_app2, ex_ctx)) true;
    mkStat None None (Some (ex_app, ex_ctx)) false;
    mkStat (Some Info) (Some ex_ecu1) (Some (ex_app, ex_ctx)) true ].
Proof. reflexivity. Qed.

Example c10_ex_collect : collect_messages ex_stream =
  mkSI [ (ex_app, mkLD 1 0 0 0 2 0 0 0); (ex_app2, mkLD 0 0 0 0 0 0 0 1) ]
       [ (ex_ctx, mkLD 1 0 0 0 2 0 0 1) ]
       [ (ex_ecu1, mkLD 0 0 0 0 2 0 0 1); (NONE_ID, mkLD 2 0 0 0 0 0 0 0) ]
       true.
Proof. vm_compute. reflexivity. Qed.

Example c10_ex_tally :
  tally_lookup KEcu ex_ecu1 BInfo ex_stats = 2 /\ tally_lookup KEcu NONE_ID BNonLog ex_stats = 2 /\
  tally_lookup KApp ex_app2 BInvalid ex_stats = 1 /\ tally_lookup KCtx ex_ctx BNonLog ex_stats = 1 /\
  key_present KApp ex_ecu1 ex_stats = false /\ non_verbose_spec ex_stats = true /\
  map_total (si_ecu (collect_all ex_stats)) = 5.
Proof. vm_compute. repeat split; reflexivity. Qed.

(* the stream split 2 + 3: the two merge orders give different entry orders, which is why the
   statement is up to [stat_equiv]; both are equivalent to the statistics of the whole *)
Definition ex_part1 : list statistic := firstn 2 ex_stats.
Definition ex_part2 : list statistic := skipn 2 ex_stats.

Example c10_ex_split : ex_part1 ++ ex_part2 = ex_stats /\ ex_part1 <> [] /\ ex_part2 <> [].
Proof. vm_compute. repeat split; discriminate. Qed.

Example c10_ex_merge_12 : merge (collect_all ex_part1) (collect_all ex_part2) = collect_all ex_stats.
Proof. vm_compute. reflexivity. Qed.

Example c10_ex_merge_21 :
  merge (collect_all ex_part2) (collect_all ex_part1) =
  mkSI [ (ex_app2, mkLD 0 0 0 0 0 0 0 1); (ex_app, mkLD 1 0 0 0 2 0 0 0) ]
       [ (ex_ctx, mkLD 1 0 0 0 2 0 0 1) ]
       [ (ex_ecu1, mkLD 0 0 0 0 2 0 0 1); (NONE_ID, mkLD 2 0 0 0 0 0 0 0) ]
       true
  /\ merge (collect_all ex_part2) (collect_all ex_part1) <> collect_all ex_stats.
Proof. vm_compute. split; [reflexivity | discriminate]. Qed.

Example c10_ex_merge_21_equiv :
  stat_equiv (merge (collect_all ex_part2) (collect_all ex_part1)) (collect_all ex_stats).
Proof.
  apply (c10_split_any [ex_part1; ex_part2] (Node (Leaf ex_part2) (Leaf ex_part1))).
  apply perm_swap.
Qed.

(* a three-way split merged in a different order and grouping *)
Example c10_ex_tree :
  stat_equiv
    (eval_tree (Node (Leaf (skipn 3 ex_stats)) (Node (Leaf (firstn 1 ex_stats)) (Leaf (firstn 2 (skipn 1 ex_stats))))))
    (collect_all ex_stats).
Proof.
  apply (c10_split_any [firstn 1 ex_stats; firstn 2 (skipn 1 ex_stats); skipn 3 ex_stats]).
  cbn [leaves app]. apply (Permutation_cons_append [_; _]).
Qed.

(* the well-formedness hypothesis of the merge laws holds for hand-written results, too *)
Example c10_ex_wf :
  stat_wf (mkSI [ (ex_app, mkLD 1 0 0 0 0 0 0 0); (ex_app2, mkLD 0 2 0 0 0 0 0 0) ]
                [ (ex_ctx, mkLD 1 2 0 0 0 0 0 0) ] [ (NONE_ID, mkLD 1 2 0 0 0 0 0 0) ] false).
Proof.
  intros []; cbn; repeat constructor; cbn; try tauto.
  intros [H|[]]. discriminate H.
Qed.
