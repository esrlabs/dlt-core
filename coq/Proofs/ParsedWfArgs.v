(* Proofs/ParsedWfArgs.v — clean texts.  What the string parser returns is valid UTF-8 without NUL and
   no longer than the field it was cut from; such a text is a well-formed id, name or string value. *)
From Coq Require Import Lia ZifyBool ZifyN ZifyNat.
From DltV.Model Require Import Bytes Utf8 Nom Parse.
From DltV.Proofs Require Import ZString.
From DltV.Spec Require Import WellFormed.
Open Scope N_scope.

Definition text_ok (s : list byte) (k : N) : Prop :=
  valid_utf8 s = true /\ no_nul s = true /\ len s <= k.
Definition opt_text_ok (o : option (list byte)) (k : N) : Prop :=
  match o with Some s => text_ok s k | None => True end.

Lemma text_ok_mono s k k' : text_ok s k -> k <= k' -> text_ok s k'.
Proof. intros (A & B & C) H. repeat split; trivial. lia. Qed.
Lemma opt_text_ok_mono o k k' : opt_text_ok o k -> k <= k' -> opt_text_ok o k'.
Proof. destruct o; [apply text_ok_mono | trivial]. Qed.

Lemma text_ok_wf_text s k : text_ok s k -> k <= 65534 -> wf_text s = true.
Proof.
  intros (A & B & C) H. unfold wf_text. rewrite A, B.
  destruct (N.leb_spec (len s) 65534); [reflexivity | lia].
Qed.
Lemma text_ok_wf_id s : text_ok s 4 -> wf_id s = true.
Proof.
  intros (A & B & C). unfold wf_id. rewrite A, B.
  destruct (N.leb_spec (len s) 4); [reflexivity | lia].
Qed.
Lemma zstring_text_ok {size i r rest} : zstring size i = POk r rest -> text_ok r size.
Proof. apply zstring_result_clean. Qed.
Lemma zstring_wf_id {i r rest} : zstring 4 i = POk r rest -> wf_id r = true.
Proof. intros H. eapply text_ok_wf_id, zstring_text_ok, H. Qed.
