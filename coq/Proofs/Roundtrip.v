(* Proofs/Roundtrip.v — C01 and the message half of C05 as one statement: dlt_message is [stable] on the bytes
   Message::as_bytes writes.  With any continuation it returns the message and exactly that continuation; on every
   proper prefix it reports Incomplete with a safe hint. *)
From Coq Require Import Lia ZifyBool ZifyN ZifyNat.
From DltV.Model Require Import Bytes Nom Dlt Parse.
From DltV.Spec Require Import WellFormed.
From DltV.Proofs Require Import BytesBasics Fields ParseLemmas Search Consumption Stable Lengths Headers ArgsRoundtrip.
Open Scope N_scope.

Definition has_storage (m : message) : bool :=
  match m_storage m with Some _ => true | None => false end.

(* ---------- network trace: the slices are raw arguments without name ---------- *)
Definition raw_arg (s : list byte) : argument := mkArg (mkTI KRaw SAscii false false) None None None (VRaw s).

Lemma nw_payload_bytes_eq e sl :
  payload_bytes e (PNetworkTrace sl) = flat_map (arg_bytes e) (map raw_arg sl).
Proof.
  cbn [payload_bytes]. induction sl as [|s sl IH]; [reflexivity|].
  cbn [flat_map map]. rewrite IH. reflexivity.
Qed.
Lemma raw_slices_raw_args sl : raw_slices (map raw_arg sl) = sl.
Proof.
  unfold raw_slices. induction sl as [|s sl IH]; [reflexivity|].
  cbn [flat_map map raw_arg a_value app]. now rewrite IH.
Qed.
Lemma wf_raw_args sl :
  forallb (fun s => len s <=? 65535) sl = true -> forallb wf_arg (map raw_arg sl) = true.
Proof.
  induction sl as [|s sl IH]; [reflexivity|]. cbn [forallb map]. intros H.
  apply andb_true_iff in H as [H1 H2]. rewrite (IH H2), andb_true_r. exact H1.
Qed.

(* ---------- payload ---------- *)

Lemma verbose_payload_roundtrip e args rest noar mt :
  forallb wf_arg args = true -> noar = len args ->
  dlt_payload e (flat_map (arg_bytes e) args ++ rest) true (len (flat_map (arg_bytes e) args)) noar mt =
  match mt with
  | Some (MNwTrace _) => POk (PNetworkTrace (raw_slices args)) rest
  | _ => POk (PVerbose args) rest
  end.
Proof.
  intros Hwf ->. unfold dlt_payload. rewrite take_app by reflexivity. cbn [pbind].
  rewrite len_to_nat.
  pose proof (arguments_roundtrip e args [] Hwf) as C. rewrite app_nil_r in C. rewrite C.
  reflexivity.
Qed.

Theorem payload_roundtrip e x p rest :
  wf_kind x p = true ->
  dlt_payload e (payload_bytes e p ++ rest) (verbose_of x) (len (payload_bytes e p)) (noar_of x)
    (option_map e_mtype x) = POk p rest.
Proof.
  intros H. destruct p as [args|id bs|ct bs|sl].
  - (* verbose *)
    destruct x as [x|]; [|discriminate H]. cbn [wf_kind] in H.
    apply andb_true_iff in H as [H Hargs]. apply andb_true_iff in H as [H Hnw].
    apply andb_true_iff in H as [H _]. apply andb_true_iff in H as [Hv Hn]. apply N.eqb_eq in Hn.
    cbn [verbose_of noar_of option_map payload_bytes]. rewrite Hv.
    rewrite (verbose_payload_roundtrip e args rest _ _ Hargs Hn).
    destruct (e_mtype x); try reflexivity. discriminate Hnw.
  - (* non-verbose *)
    assert (Hx : id < 256 ^ N.of_nat 4 /\ verbose_of x = false /\ opt_is is_control (option_map e_mtype x) = false).
    { destruct x as [x|]; cbn [wf_kind] in H.
      - apply andb_true_iff in H as [H Hid]. apply andb_true_iff in H as [Hv Hc].
        apply N.ltb_lt in Hid. apply negb_true_iff in Hv, Hc.
        split; [eapply lt_256_pow; [exact Hid | cbn; lia] | now split].
      - apply N.ltb_lt in H. split; [eapply lt_256_pow; [exact H | cbn; lia] | now split]. }
    destruct Hx as (Hid & -> & Hmt). rewrite dlt_payload_nonverbose, Hmt. cbn [payload_bytes].
    rewrite len_app, len_put_uint.
    destruct (N.ltb_spec (N.of_nat 4 + len bs) 4) as [Hbad|_]; [lia|].
    rewrite <- app_assoc, (uint_put e 4 id _ Hid). cbn [pbind].
    now rewrite take_app by lia.
  - (* control *)
    destruct x as [x|]; [|discriminate H]. cbn [wf_kind] in H.
    apply andb_true_iff in H as [H Hct]. apply andb_true_iff in H as [Hv Hc]. apply negb_true_iff in Hv.
    cbn [verbose_of noar_of option_map payload_bytes]. rewrite Hv, dlt_payload_nonverbose.
    cbn [opt_is]. rewrite Hc, len_cons.
    destruct (N.ltb_spec (1 + len bs) 1) as [Hbad|_]; [lia|].
    cbn [app u8_complete pbind]. rewrite take_app by lia. cbn [pbind].
    assert (Hcv : control_value ct < 256 /\ control_from_value (control_value ct) = ct).
    { destruct ct as [| |n]; [split; [reflexivity | reflexivity] .. |].
      cbn [wf_control_id control_value] in *. apply andb_true_iff in Hct as [Hct H2].
      apply andb_true_iff in Hct as [Hlt H1]. apply N.ltb_lt in Hlt.
      apply negb_true_iff, N.eqb_neq in H1, H2. split; [exact Hlt|].
      unfold control_from_value. destruct n as [|[q|q|]]; try reflexivity; try congruence.
      destruct q; try reflexivity. congruence. }
    destruct Hcv as [Hlt Hcv]. rewrite (n2b_small _ Hlt), Hcv. reflexivity.
  - (* network trace *)
    destruct x as [x|]; [|discriminate H]. cbn [wf_kind] in H.
    apply andb_true_iff in H as [H Hsl]. apply andb_true_iff in H as [H Hnw].
    apply andb_true_iff in H as [H _]. apply andb_true_iff in H as [Hv Hn]. apply N.eqb_eq in Hn.
    cbn [verbose_of noar_of option_map]. rewrite Hv, nw_payload_bytes_eq.
    rewrite (verbose_payload_roundtrip e (map raw_arg sl) rest _ _ (wf_raw_args sl Hsl))
      by (now rewrite len_map).
    rewrite raw_slices_raw_args. destruct (e_mtype x); try discriminate Hnw. reflexivity.
Qed.

(* ---------- storage header ---------- *)
Lemma storage_header_bytes_eq s :
  storage_header_bytes s =
  [x44; x4c; x54] ++ [x01] ++ put_uint LE 4 (ts_secs (sh_ts s)) ++ put_uint LE 4 (ts_micros (sh_ts s))
  ++ put_zstring (sh_ecu s) 4.
Proof. reflexivity. Qed.

Lemma stable_sh_core s : wf_storage s = true -> stable sh_core (storage_header_bytes s) s.
Proof.
  intros H. apply wf_storage_inv in H as (H1 & H2 & He).
  rewrite storage_header_bytes_eq. unfold sh_core.
  apply (stable_bind (tag [x44; x4c; x54]) _ _ _ _ _ (stable_tag _)). cbv beta.
  apply (stable_bind (tag [x01]) _ _ _ _ _ (stable_tag _)). cbv beta.
  apply (stable_bind (uint LE 4) _ _ _ _ _ (stable_uint LE 4 _ H1)). cbv beta.
  apply (stable_bind (uint LE 4) _ _ _ _ _ (stable_uint LE 4 _ H2)). cbv beta.
  apply (stable_bind_last (zstring 4) _ _ _ _ (stable_id _ He)).
  intros i. destruct s as [[secs micros] ecu]. reflexivity.
Qed.

Lemma storage_header_roundtrip s r :
  wf_storage s = true -> dlt_storage_header (storage_header_bytes s ++ r) = POk (Some (s, 0)) r.
Proof.
  intros H. rewrite dlt_storage_header_eq.
  rewrite len_app, (len_storage_header_bytes s H).
  destruct (N.ltb_spec (16 + len r) 16) as [Hbad|_]; [lia|].
  assert (F : forward_to_next_storage_header (storage_header_bytes s ++ r) =
              Some (0, storage_header_bytes s ++ r)).
  { unfold storage_header_bytes. rewrite <- app_assoc.
    apply (forward_junk [] _). reflexivity. }
  rewrite F. exact (proj1 (stable_pmap (fun s => Some (s, 0)) _ _ _ (stable_sh_core s H)) r).
Qed.

Lemma storage_header_short c : len c < 16 -> dlt_storage_header c = PIncomplete None.
Proof.
  intros H. rewrite dlt_storage_header_eq. destruct (N.ltb_spec (len c) 16) as [_|Hbad]; [reflexivity | lia].
Qed.

(* ---------- the part behind the storage header ---------- *)
Definition opt_ext_bytes (x : option ext_header) : list byte :=
  match x with Some x => ext_header_bytes x | None => [] end.
Definition body_bytes (h : std_header) (x : option ext_header) (p : payload) : list byte :=
  std_header_bytes h ++ opt_ext_bytes x ++ payload_bytes (h_endian h) p.

Lemma message_bytes_eq m :
  message_bytes m =
  (match m_storage m with Some s => storage_header_bytes s | None => [] end)
  ++ body_bytes (m_header m) (m_ext m) (m_payload m).
Proof. reflexivity. Qed.

Lemma len_body_bytes h x p : wf_body h x p -> len (body_bytes h x p) = overall_length h.
Proof.
  intros W. pose proof (len_message_bytes_wf (mkMsg None h x p) eq_refl
                          (wb_std _ _ _ W) (wb_has _ _ _ W) (wb_ext _ _ _ W)) as L.
  cbn [m_storage m_header m_ext m_payload is_some] in L.
  change (message_bytes (mkMsg None h x p)) with (body_bytes h x p) in L.
  rewrite (overall_length_small h (wb_len _ _ _ W)), (wb_pl _ _ _ W) in *. lia.
Qed.

Lemma vpl_eq h x p remaining : wf_body h x p ->
  validated_payload_length h remaining =
  if remaining <? overall_length h then VplIncomplete (Some (overall_length h - remaining))
  else VplOk (h_payload_length h).
Proof.
  intros W. unfold validated_payload_length.
  pose proof (all_headers_length_eq h (wb_std _ _ _ W)) as AH.
  pose proof (overall_length_small h (wb_len _ _ _ W)) as Ov.
  destruct (N.ltb_spec (overall_length h) (calculate_all_headers_length (header_type_byte h))) as [Hbad|_]; [lia|].
  destruct (N.ltb_spec remaining (overall_length h)); [now rewrite needed_new_pos by lia|].
  f_equal. lia.
Qed.

Lemma stable_opt_ext h x p : wf_body h x p ->
  stable (fun i => if h_has_ext h then pmap Some (dlt_extended_header i) else POk None i) (opt_ext_bytes x) x.
Proof.
  intros W. rewrite (wb_has _ _ _ W). apply stable_option. intros x' ->. apply stable_ext_header, (wb_ext _ _ _ W).
Qed.

Theorem stable_message_after shs h x p f :
  wf_body h x p ->
  stable (fun i => dlt_message_after shs i f) (body_bytes h x p)
         (if filtered_out x f (h_ecu h) then FilteredOut (h_payload_length h)
          else Item (mkMsg (option_map fst shs) h x p)).
Proof.
  intros W.
  destruct (stable_std_header h (wb_std _ _ _ W) (wb_len _ _ _ W)) as [S1 S2].
  destruct (stable_opt_ext h x p W) as [X1 X2].
  pose proof (len_body_bytes h x p W) as LB.
  unfold dlt_message_after. split.
  - intros rest.
    assert (Hlen : overall_length h <= len (body_bytes h x p ++ rest)) by (rewrite len_app; lia).
    unfold body_bytes at 1. rewrite <- !app_assoc, S1. cbn [pbind]. cbv zeta.
    rewrite X1. cbn [pbind]. rewrite (vpl_eq h x p _ W).
    destruct (N.ltb_spec (len (body_bytes h x p ++ rest)) (overall_length h)); [lia|].
    destruct (filtered_out x f (h_ecu h)).
    + rewrite take_app by (symmetry; apply (wb_pl _ _ _ W)). reflexivity.
    + rewrite (wb_pl _ _ _ W). change (match x with Some x0 => e_verbose x0 | None => false end) with (verbose_of x).
      change (match x with Some x0 => e_noar x0 | None => 0 end) with (noar_of x).
      rewrite (payload_roundtrip (h_endian h) x p rest (wb_kind _ _ _ W)). reflexivity.
  - intros c' Hp. pose proof (proper_prefix_len _ _ Hp) as Lc. unfold body_bytes in *.
    apply proper_prefix_app in Hp as [Hp|(c2 & -> & Hp)].
    + (* inside the standard header *)
      destruct (S2 c' Hp) as (n & Hn & Hh). exists n. rewrite Hn. split; [reflexivity|].
      eapply hint_ok_weaken; [exact Hh|]. rewrite len_app. lia.
    + rewrite S1. cbn [pbind]. cbv zeta.
      apply proper_prefix_app in Hp as [Hp|(c3 & -> & Hp)].
      * (* inside the extended header *)
        destruct (X2 c2 Hp) as (n & Hn & Hh). exists n. rewrite Hn. split; [reflexivity|].
        eapply hint_ok_weaken; [exact Hh|]. rewrite !len_app. lia.
      * (* inside the payload: the exact shortfall *)
        rewrite X1. cbn [pbind]. rewrite (vpl_eq h x p _ W).
        destruct (N.ltb_spec (len (std_header_bytes h ++ opt_ext_bytes x ++ c3)) (overall_length h)); [|lia].
        eexists. split; [reflexivity|]. cbn [hint_ok]. lia.
Qed.

Lemma stable_storage_header s :
  wf_storage s = true -> stable dlt_storage_header (storage_header_bytes s) (Some (s, 0)).
Proof.
  intros H. split; [intros r; apply storage_header_roundtrip, H|].
  intros c' Hp. apply proper_prefix_len in Hp. rewrite (len_storage_header_bytes s H) in Hp.
  exists None. split; [apply storage_header_short, Hp | exact I].
Qed.

(* ---------- C01 and C05 ---------- *)
Theorem stable_message m f :
  wf_message m = true ->
  stable (fun i => dlt_message i f (has_storage m)) (message_bytes m)
         (if filtered_out (m_ext m) f (h_ecu (m_header m)) then FilteredOut (h_payload_length (m_header m))
          else Item m).
Proof.
  intros H. apply wf_message_inv in H as [Hs W].
  rewrite message_bytes_eq. unfold dlt_message, has_storage.
  destruct m as [[s|] h x p]; cbn [m_storage m_header m_ext m_payload wf_opt] in *.
  - exact (stable_bind _ _ _ _ _ _ (stable_storage_header s Hs) (stable_message_after (Some (s, 0)) h x p f W)).
  - exact (stable_message_after None h x p f W).
Qed.

Theorem message_roundtrip_filter m f rest :
  wf_message m = true ->
  dlt_message (message_bytes m ++ rest) f (has_storage m) =
  if filtered_out (m_ext m) f (h_ecu (m_header m))
  then POk (FilteredOut (h_payload_length (m_header m))) rest
  else POk (Item m) rest.
Proof.
  intros H. rewrite (proj1 (stable_message m f H) rest). now destruct (filtered_out _ _ _).
Qed.

Theorem message_roundtrip m rest :
  wf_message m = true ->
  dlt_message (message_bytes m ++ rest) None (has_storage m) = POk (Item m) rest.
Proof. intros H. apply (message_roundtrip_filter m None rest H). Qed.

