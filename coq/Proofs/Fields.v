(* Proofs/Fields.v — fixed-width integer fields: put/get round trips in both byte orders, two's complement;
   [field p k f], a parser that is a function of its first k bytes, closed under sequencing; the streaming
   number parsers of Nom.v are such, which gives what they return, on written fields in particular. *)
From Coq Require Import Lia ZifyBool ZifyN ZifyNat.
From DltV.Model Require Import Bytes Nom.
From DltV.Proofs Require Import BytesBasics.
Open Scope N_scope.

Lemma le_put_length k v : length (le_put k v) = k.
Proof. revert v; induction k as [|k IH]; intros v; cbn [le_put length]; [reflexivity | now rewrite IH]. Qed.

Lemma put_uint_length e k v : length (put_uint e k v) = k.
Proof. destruct e; cbn [put_uint]; [|rewrite rev_length]; apply le_put_length. Qed.

Lemma len_put_uint e k v : len (put_uint e k v) = N.of_nat k.
Proof. unfold len. now rewrite put_uint_length. Qed.
Lemma put_uint_1 e n : put_uint e 1 n = [n2b n].
Proof. now destruct e. Qed.
Lemma len_put_sint e k z : len (put_sint e k z) = N.of_nat k.
Proof. unfold put_sint. apply len_put_uint. Qed.

Lemma le_get_le_put k v : le_get (le_put k v) = v mod 256 ^ N.of_nat k.
Proof.
  revert v; induction k as [|k IH]; intros v.
  - cbn [le_put le_get]. change (256 ^ N.of_nat 0) with 1. now rewrite N.mod_1_r.
  - cbn [le_put le_get]. rewrite IH, b2n_n2b.
    replace (N.of_nat (S k)) with (N.succ (N.of_nat k)) by lia.
    rewrite N.pow_succ_r'.
    assert (Hp : 256 ^ N.of_nat k <> 0) by (apply N.pow_nonzero; lia).
    rewrite N.mod_mul_r by lia. reflexivity.
Qed.

Lemma le_get_bound bs : le_get bs < 256 ^ len bs.
Proof.
  induction bs as [|b r IH].
  - cbn. lia.
  - cbn [le_get]. rewrite len_cons.
    replace (1 + len r) with (N.succ (len r)) by lia. rewrite N.pow_succ_r'.
    pose proof (b2n_lt b). nia.
Qed.

Lemma le_put_le_get bs : le_put (length bs) (le_get bs) = bs.
Proof.
  induction bs as [|b r IH]; [reflexivity|].
  cbn [length le_put le_get]. f_equal.
  - pose proof (b2n_lt b).
    replace (b2n b + 256 * le_get r) with (b2n b + le_get r * 256) by lia.
    unfold n2b. rewrite N.mod_add by lia. rewrite N.mod_small by lia.
    unfold b2n. now rewrite Byte.of_to_N.
  - pose proof (b2n_lt b).
    replace ((b2n b + 256 * le_get r) / 256) with (le_get r); [exact IH|].
    replace (b2n b + 256 * le_get r) with (b2n b + le_get r * 256) by lia.
    rewrite N.div_add by lia. rewrite N.div_small by lia. lia.
Qed.

Lemma get_put_uint_mod e k v : get_uint e (put_uint e k v) = v mod 256 ^ N.of_nat k.
Proof. destruct e; cbn [get_uint put_uint]; [|rewrite rev_involutive]; apply le_get_le_put. Qed.

Lemma get_put_uint e k v : v < 256 ^ N.of_nat k -> get_uint e (put_uint e k v) = v.
Proof. intros H. rewrite get_put_uint_mod. now apply N.mod_small. Qed.

Lemma put_get_uint e bs : put_uint e (length bs) (get_uint e bs) = bs.
Proof.
  destruct e; cbn [get_uint put_uint].
  - apply le_put_le_get.
  - rewrite <- (rev_length bs). rewrite le_put_le_get. apply rev_involutive.
Qed.

Lemma get_uint_bound e bs : get_uint e bs < 256 ^ len bs.
Proof.
  destruct e; cbn [get_uint]; [apply le_get_bound|].
  rewrite <- len_rev. apply le_get_bound.
Qed.

Lemma be16 : forall l, l < 65536 -> 256 * b2n (n2b (l / 256)) + b2n (n2b l) = l.
Proof.
  intros l Hl. rewrite !b2n_n2b, (N.mod_small (l / 256)) by (apply N.div_lt_upper_bound; lia).
  pose proof (N.div_mod l 256 ltac:(lia)). lia.
Qed.

Lemma pow256 k : 256 ^ N.of_nat k = 2 ^ (8 * N.of_nat k).
Proof. change 256 with (2 ^ 8). now rewrite <- N.pow_mul_r. Qed.
Lemma lt_256_pow k v b : v < 2 ^ b -> b <= 8 * N.of_nat k -> v < 256 ^ N.of_nat k.
Proof.
  intros H1 H2. rewrite pow256. eapply N.lt_le_trans; [exact H1|]. apply N.pow_le_mono_r; [discriminate | exact H2].
Qed.

Lemma put_uint_BE_rev k v : put_uint BE k v = rev (put_uint LE k v).
Proof. reflexivity. Qed.
Lemma get_uint_BE_rev bs : get_uint BE bs = get_uint LE (rev bs).
Proof. reflexivity. Qed.

(* ---- two's complement ---- *)
Lemma pow2_half bits : 0 < bits -> 2 ^ bits = 2 * 2 ^ (bits - 1).
Proof. intros H. replace bits with (N.succ (bits - 1)) at 1 by lia. now rewrite N.pow_succ_r'. Qed.
Lemma to_signed_of_signed bits z : 0 < bits -> in_signed bits z = true ->
  to_signed bits (of_signed bits z) = z.
Proof.
  intros Hb H. unfold in_signed in H. apply andb_true_iff in H as [H1 H2].
  apply Z.leb_le in H1. apply Z.ltb_lt in H2.
  unfold to_signed, of_signed.
  pose proof (pow2_half bits Hb) as Hpow.
  assert (Hpos : 0 < 2 ^ (bits - 1)) by (apply N.neq_0_lt_0, N.pow_nonzero; lia).
  set (h := 2 ^ (bits - 1)) in *. rewrite Hpow.
  assert (Hm : (0 <= z mod Z.of_N (2 * h) < Z.of_N (2 * h))%Z) by (apply Z.mod_pos_bound; lia).
  destruct (Z.leb_spec 0 z) as [Hz|Hz].
  - rewrite Z.mod_small by lia.
    destruct (N.ltb_spec (Z.to_N z) h); lia.
  - assert (E : (z mod Z.of_N (2 * h) = z + Z.of_N (2 * h))%Z).
    { symmetry. apply Z.mod_unique_pos with (q := (-1)%Z); lia. }
    rewrite E. destruct (N.ltb_spec (Z.to_N (z + Z.of_N (2 * h))) h); lia.
Qed.

Lemma of_signed_bound bits z : of_signed bits z < 2 ^ bits.
Proof.
  unfold of_signed.
  assert (Hpos : 0 < 2 ^ bits) by (apply N.neq_0_lt_0, N.pow_nonzero; lia).
  pose proof (Z.mod_pos_bound z (Z.of_N (2 ^ bits))). lia.
Qed.

Lemma to_signed_in_range bits n : n < 2 ^ bits -> in_signed bits (to_signed bits n) = true.
Proof.
  intros Hn. unfold in_signed, to_signed.
  destruct (N.eq_dec bits 0) as [->|Hb]; [cbn in *; destruct (N.ltb_spec n 1); lia|].
  pose proof (pow2_half bits ltac:(lia)) as Hpow.
  set (h := 2 ^ (bits - 1)) in *. rewrite Hpow in *.
  destruct (N.ltb_spec n h); apply andb_true_iff; split; lia.
Qed.

Lemma of_signed_to_signed bits n : n < 2 ^ bits -> of_signed bits (to_signed bits n) = n.
Proof.
  intros Hn. unfold of_signed, to_signed.
  destruct (N.eq_dec bits 0) as [->|Hb]; [cbn in *; destruct (N.ltb_spec n 1); lia|].
  pose proof (pow2_half bits ltac:(lia)) as Hpow.
  set (h := 2 ^ (bits - 1)) in *. rewrite Hpow in *.
  destruct (N.ltb_spec n h).
  - rewrite Z.mod_small by lia. lia.
  - replace ((Z.of_N n - Z.of_N (2 * h)) mod Z.of_N (2 * h))%Z with (Z.of_N n).
    + lia.
    + apply Z.mod_unique_pos with (q := (-1)%Z); lia.
Qed.

Lemma get_put_sint e k z : (0 < k)%nat -> in_signed (8 * N.of_nat k) z = true ->
  get_sint e (put_sint e k z) = z.
Proof.
  intros Hk H. unfold get_sint, put_sint. rewrite put_uint_length.
  rewrite get_put_uint.
  - apply to_signed_of_signed; [lia | exact H].
  - rewrite pow256. apply of_signed_bound.
Qed.

Lemma needed_new_pos n : 0 < n -> needed_new n = Some n.
Proof. intros H. unfold needed_new. destruct (N.eqb_spec n 0); [lia | reflexivity]. Qed.

(* ---- fixed-size fields: [p] is a total function of its first [k] bytes; below [k] it asks for more,
   at least one byte and at most what is missing ---- *)
Definition field {A} (p : list byte -> pres A) (k : N) (f : list byte -> A) : Prop :=
  forall i, (k <= len i -> p i = POk (f (firstn (N.to_nat k) i)) (skipn (N.to_nat k) i))
         /\ (len i < k -> exists h, p i = PIncomplete (Some h) /\ 1 <= h <= k - len i).
Lemma field_long {A} (p : list byte -> pres A) k f i : field p k f -> k <= len i ->
  p i = POk (f (firstn (N.to_nat k) i)) (skipn (N.to_nat k) i).
Proof. intros F. apply (F i). Qed.
Lemma field_hint {A} (p : list byte -> pres A) k f i : field p k f -> len i < k ->
  exists h, p i = PIncomplete (Some h) /\ 1 <= h <= k - len i.
Proof. intros F. apply (F i). Qed.
Lemma field_short {A} (p : list byte -> pres A) k f i : field p k f -> len i < k ->
  exists n, p i = PIncomplete n.
Proof. intros F H. destruct (field_hint _ _ _ _ F H) as (h & E & _). now exists (Some h). Qed.

Lemma field_ext {A} (p : list byte -> pres A) k f f' :
  (forall c, len c = k -> f c = f' c) -> field p k f -> field p k f'.
Proof.
  intros E F i. split; intros H.
  - rewrite (field_long _ _ _ _ F H). f_equal. apply E. now apply len_firstn_N.
  - now apply (field_hint _ _ _ _ F).
Qed.

Lemma field_pmap {A B} (g : A -> B) (p : list byte -> pres A) k f :
  field p k f -> field (fun i => pmap g (p i)) k (fun c => g (f c)).
Proof.
  intros F i. split; intros H.
  - now rewrite (field_long _ _ _ _ F H).
  - destruct (field_hint _ _ _ _ F H) as (h & -> & Hh). now exists h.
Qed.

Lemma field_inv {A} (p : list byte -> pres A) k f i v r : field p k f -> p i = POk v r ->
  k <= len i /\ v = f (firstn (N.to_nat k) i) /\ r = skipn (N.to_nat k) i.
Proof.
  intros F E. destruct (N.ltb_spec (len i) k) as [H|H].
  - destruct (field_short _ _ _ _ F H) as (n & E'). congruence.
  - rewrite (field_long _ _ _ _ F H) in E. injection E as <- <-. auto.
Qed.
Lemma field_ok {A} (p : list byte -> pres A) k f i : field p k f -> k <= len i ->
  exists v r, p i = POk v r /\ len i = k + len r.
Proof.
  intros F H. eexists _, _. split; [apply (field_long _ _ _ _ F H)|]. rewrite len_skipn_N. lia.
Qed.
Lemma field_app {A} (p : list byte -> pres A) k f c r : field p k f -> len c = k -> p (c ++ r) = POk (f c) r.
Proof.
  intros F H. rewrite (field_long _ _ _ _ F) by (rewrite len_app; lia).
  subst k. now rewrite firstn_len_app, skipn_len_app.
Qed.
Lemma field_pres {A} (p : list byte -> pres A) k f i : field p k f ->
  (exists v r, p i = POk v r) \/ (exists n, p i = PIncomplete n).
Proof.
  intros F. destruct (N.ltb_spec (len i) k) as [H|H].
  - right. apply (field_short _ _ _ _ F H).
  - left. eexists _, _. apply (field_long _ _ _ _ F H).
Qed.
Lemma field_no_panic {A} (p : list byte -> pres A) k f i : field p k f -> p i <> PPanic.
Proof. intros F. destruct (field_pres p k f i F) as [(v & r & ->)|(n & ->)]; discriminate. Qed.

Lemma field_opt {A} (c : bool) (p : list byte -> pres A) k f : field p k f ->
  field (fun i => if c then pmap Some (p i) else POk None i) (if c then k else 0)
        (fun ch => if c then Some (f ch) else None).
Proof.
  intros F. destruct c.
  - apply (field_pmap Some), F.
  - intros i. split; intros H; [reflexivity | lia].
Qed.

Lemma bind_field_long {A B} (p : list byte -> pres A) k f (K : A -> list byte -> pres B) i :
  field p k f -> k <= len i -> pbind (p i) K = K (f (firstn (N.to_nat k) i)) (skipn (N.to_nat k) i).
Proof. intros F H. now rewrite (field_long _ _ _ _ F H). Qed.
Lemma field_bind {A B} (p : list byte -> pres A) k1 f (q : A -> list byte -> pres B) k2 g :
  field p k1 f -> (forall v, field (q v) k2 (g v)) ->
  field (fun i => pbind (p i) q) (k1 + k2)
        (fun c => g (f (firstn (N.to_nat k1) c)) (firstn (N.to_nat k2) (skipn (N.to_nat k1) c))).
Proof.
  intros F G i. split; intros H.
  - pose proof (len_skipn_N k1 i) as L1.
    rewrite (bind_field_long _ _ _ _ _ F) by lia.
    rewrite (field_long _ _ _ _ (G _)) by lia.
    rewrite firstn_firstn, skipn_firstn_comm, firstn_firstn, skipn_skipn_add.
    repeat f_equal; lia.
  - destruct (N.ltb_spec (len i) k1) as [H1|H1].
    + destruct (field_hint _ _ _ _ F H1) as (h & -> & Hh). exists h. split; [reflexivity | lia].
    + rewrite (bind_field_long _ _ _ _ _ F H1). pose proof (len_skipn_N k1 i) as L1.
      destruct (field_hint _ _ _ (skipn (N.to_nat k1) i) (G (f (firstn (N.to_nat k1) i)))) as (h & -> & Hh); [lia|].
      exists h. split; [reflexivity | lia].
Qed.

Lemma field_ret {A} (v : A) : field (fun i => POk v i) 0 (fun _ => v).
Proof. intros i. split; intros H; [reflexivity | lia]. Qed.

Definition needs {B} (k : N) (q : list byte -> pres B) : Prop :=
  forall i, len i < k -> exists n, q i = PIncomplete n.
Lemma needs_bind {A B} (p : list byte -> pres A) k f (K : A -> list byte -> pres B) k' :
  field p k f -> (forall v, needs k' (K v)) -> needs (k + k') (fun i => pbind (p i) K).
Proof.
  intros F Hn i H. destruct (N.ltb_spec (len i) k) as [Hs|Hl].
  { destruct (field_short _ _ _ _ F Hs) as (n & ->). now exists n. }
  rewrite (bind_field_long _ _ _ _ _ F Hl). apply Hn. rewrite len_skipn_N. lia.
Qed.
Lemma needs_0 {B} (q : list byte -> pres B) : needs 0 q.
Proof. intros i H. lia. Qed.

(* ---- the streaming number parsers on a written field ---- *)
Lemma field_uint e k : field (uint e k) (N.of_nat k) (get_uint e).
Proof.
  intros i. unfold uint. rewrite Nat2N.id.
  split; intros H; destruct (N.ltb_spec (len i) (N.of_nat k)); try lia.
  - reflexivity.
  - rewrite needed_new_pos by lia. eexists. split; [reflexivity | lia].
Qed.

Lemma uint_put e k v rest : v < 256 ^ N.of_nat k ->
  uint e k (put_uint e k v ++ rest) = POk v rest.
Proof.
  intros H. rewrite (field_app _ _ _ _ rest (field_uint e k) (len_put_uint e k v)).
  now rewrite get_put_uint.
Qed.

Lemma field_sint e k : field (sint e k) (N.of_nat k) (get_sint e).
Proof.
  apply (field_ext _ _ (fun c => to_signed (8 * N.of_nat k) (get_uint e c))).
  - intros c Hc. unfold get_sint. unfold len in Hc. now rewrite Hc.
  - apply (field_pmap (to_signed (8 * N.of_nat k))), field_uint.
Qed.

Lemma sint_put e k z rest : (0 < k)%nat -> in_signed (8 * N.of_nat k) z = true ->
  sint e k (put_sint e k z ++ rest) = POk z rest.
Proof.
  intros Hk H. rewrite (field_app _ _ _ _ rest (field_sint e k) (len_put_sint e k z)).
  now rewrite get_put_sint.
Qed.

Lemma uint_value_bound e k i v rest : uint e k i = POk v rest -> v < 256 ^ N.of_nat k.
Proof.
  intros H. destruct (field_inv _ _ _ _ _ _ (field_uint e k) H) as (L & -> & _).
  pose proof (get_uint_bound e (firstn (N.to_nat (N.of_nat k)) i)) as Hb. now rewrite len_firstn_N in Hb.
Qed.

Lemma uint_pow2 e k i v rest : uint e k i = POk v rest -> v < 2 ^ (8 * N.of_nat k).
Proof. intros H. rewrite <- pow256. eapply uint_value_bound, H. Qed.
Lemma uint_ltb e k i v rest : uint e k i = POk v rest -> (v <? 2 ^ (8 * N.of_nat k)) = true.
Proof. intros H. apply N.ltb_lt. eapply uint_pow2, H. Qed.
Lemma sint_in_range e k i z rest : sint e k i = POk z rest -> in_signed (8 * N.of_nat k) z = true.
Proof.
  intros H. unfold sint, pmap, pbind in H. destruct (uint e k i) as [n r| | | |] eqn:E; try discriminate.
  replace z with (to_signed (8 * N.of_nat k) n) by congruence.
  apply to_signed_in_range. eapply uint_pow2, E.
Qed.

Lemma get_uint_single e b : get_uint e [b] = b2n b.
Proof. destruct e; cbn [get_uint rev app le_get]; lia. Qed.
Lemma len1_single (c : list byte) : len c = 1 -> exists b, c = [b].
Proof.
  destruct c as [|b [|b' c]]; unfold len; cbn [length]; intros H; try lia. now exists b.
Qed.
Lemma get_uint_1 e e' c : len c = 1 -> get_uint e c = get_uint e' c.
Proof. intros H. destruct (len1_single c H) as (b & ->). now rewrite !get_uint_single. Qed.
Lemma get_sint_1 e e' c : len c = 1 -> get_sint e c = get_sint e' c.
Proof. intros H. unfold get_sint. now rewrite (get_uint_1 e e' c H). Qed.

Lemma field_u8 e : field u8 1 (get_uint e).
Proof. apply (field_ext _ _ (get_uint BE)); [intros c; apply get_uint_1 | apply (field_uint BE 1)]. Qed.
Lemma field_s8 e : field (sint BE 1) 1 (get_sint e).
Proof. apply (field_ext _ _ (get_sint BE)); [intros c; apply get_sint_1 | apply (field_sint BE 1)]. Qed.
