(* Proofs/StatsProofs.v — lemmas about the statistics collector (C10).
   Main device: the meaning of an id map is its [lookup] function; [merge_income] (and
   [add_for_level], which is a special case) acts on it as [opt_merge] with a singleton; the
   tally of a list of statistics is an [opt_merge]-homomorphism from lists. *)
From Coq Require Import Lia ZifyBool ZifyN ZifyNat Permutation.
From DltV.Model Require Import Bytes Stats.
From DltV.Spec Require Import StatsSpec.
From DltV.Proofs Require Import BytesBasics.
Open Scope N_scope.

(* ---------- level distributions ---------- *)
Lemma ld_ext : forall d d', (forall b, ld_get b d = ld_get b d') -> d = d'.
Proof.
  intros [a0 a1 a2 a3 a4 a5 a6 a7] [b0 b1 b2 b3 b4 b5 b6 b7] H.
  pose proof (H BNonLog) as H0. pose proof (H BFatal) as H1. pose proof (H BError) as H2.
  pose proof (H BWarning) as H3. pose proof (H BInfo) as H4. pose proof (H BDebug) as H5.
  pose proof (H BVerbose) as H6. pose proof (H BInvalid) as H7.
  cbn [ld_get non_log log_fatal log_error log_warning log_info log_debug log_verbose log_invalid] in *.
  congruence.
Qed.

Lemma ld_get_merge : forall b x y, ld_get b (level_dist_merge x y) = ld_get b x + ld_get b y.
Proof. intros [] x y; reflexivity. Qed.

Lemma ld_merge_assoc : forall a b c,
  level_dist_merge (level_dist_merge a b) c = level_dist_merge a (level_dist_merge b c).
Proof. intros a b c. apply ld_ext. intros k. rewrite !ld_get_merge. lia. Qed.

Lemma ld_merge_comm : forall a b, level_dist_merge a b = level_dist_merge b a.
Proof. intros a b. apply ld_ext. intros k. rewrite !ld_get_merge. lia. Qed.

Lemma ld_get_new : forall b lv,
  ld_get b (level_dist_new lv) = if bucket_eqb (bucket_of lv) b then 1 else 0.
Proof. intros [] [[]|]; reflexivity. Qed.

Lemma ld_incr_as_merge : forall lv d,
  level_dist_incr lv d = level_dist_merge d (level_dist_new lv).
Proof.
  intros lv [a0 a1 a2 a3 a4 a5 a6 a7].
  destruct lv as [[]|]; unfold level_dist_incr, level_dist_merge, level_dist_new;
    cbn [non_log log_fatal log_error log_warning log_info log_debug log_verbose log_invalid];
    f_equal; lia.
Qed.

Lemma ld_total_merge : forall a b, ld_total (level_dist_merge a b) = ld_total a + ld_total b.
Proof.
  intros [a0 a1 a2 a3 a4 a5 a6 a7] [b0 b1 b2 b3 b4 b5 b6 b7].
  unfold ld_total, level_dist_merge.
  cbn [non_log log_fatal log_error log_warning log_info log_debug log_verbose log_invalid].
  lia.
Qed.

Lemma ld_total_new : forall lv, ld_total (level_dist_new lv) = 1.
Proof. intros [[]|]; reflexivity. Qed.

Lemma ld_total_buckets : forall d,
  ld_total d = fold_right (fun b acc => ld_get b d + acc) 0 all_buckets.
Proof.
  intros d. unfold ld_total, all_buckets. cbn [fold_right ld_get]. lia.
Qed.

(* ---------- merging optional distributions ---------- *)
Definition opt_merge (x y : option level_dist) : option level_dist :=
  match x, y with
  | Some a, Some b => Some (level_dist_merge a b)
  | Some a, None => Some a
  | None, _ => y
  end.

Lemma opt_merge_None_r : forall x, opt_merge x None = x.
Proof. intros [d|]; reflexivity. Qed.

Lemma opt_merge_None_l : forall x, opt_merge None x = x.
Proof. reflexivity. Qed.

Lemma opt_merge_assoc : forall x y z, opt_merge (opt_merge x y) z = opt_merge x (opt_merge y z).
Proof.
  intros [a|] [b|] [c|]; cbn [opt_merge]; try reflexivity.
  rewrite ld_merge_assoc. reflexivity.
Qed.

Lemma opt_merge_comm : forall x y, opt_merge x y = opt_merge y x.
Proof.
  intros [a|] [b|]; cbn [opt_merge]; try reflexivity.
  rewrite ld_merge_comm. reflexivity.
Qed.

(* ---------- id maps: lookup, keys, merge_income ---------- *)
Lemma add_for_level_as_merge : forall lv m id,
  add_for_level lv m id = merge_income m id (level_dist_new lv).
Proof.
  intros lv m id. induction m as [|[k d] r IH]; cbn [add_for_level merge_income].
  - reflexivity.
  - destruct (bytes_eqb k id) eqn:E.
    + rewrite ld_incr_as_merge. reflexivity.
    + rewrite IH. reflexivity.
Qed.

Lemma lookup_None_iff : forall m id, lookup m id = None <-> ~ In id (keys m).
Proof.
  intros m id. induction m as [|[k d] r IH]; cbn [lookup keys map fst In].
  - split; [intros _ [] | reflexivity].
  - destruct (bytes_eqb k id) eqn:E.
    + apply bytes_eqb_eq in E. split; [discriminate | intros H; exfalso; apply H; left; exact E].
    + apply bytes_eqb_neq in E. fold (keys r). rewrite IH. split.
      * intros H [H1|H1]; [exact (E H1) | exact (H H1)].
      * intros H H1. apply H. right. exact H1.
Qed.

Lemma lookup_merge_income : forall o id inc id',
  lookup (merge_income o id inc) id'
  = opt_merge (lookup o id') (if bytes_eqb id id' then Some inc else None).
Proof.
  intros o id inc id'. induction o as [|[k d] r IH]; cbn [merge_income lookup].
  - destruct (bytes_eqb id id'); reflexivity.
  - destruct (bytes_eqb k id) eqn:E.
    + apply bytes_eqb_eq in E. subst k. cbn [lookup].
      destruct (bytes_eqb id id') eqn:E2.
      * reflexivity.
      * rewrite opt_merge_None_r. reflexivity.
    + cbn [lookup]. destruct (bytes_eqb k id') eqn:E3.
      * apply bytes_eqb_eq in E3. subst id'. rewrite bytes_eqb_sym, E. reflexivity.
      * exact IH.
Qed.

Lemma In_keys_merge_income : forall o id inc x,
  In x (keys (merge_income o id inc)) <-> In x (keys o) \/ x = id.
Proof.
  intros o id inc x. induction o as [|[k d] r IH]; cbn [merge_income keys map fst In].
  - split; [intros [H|[]]; right; congruence | intros [[]|H]; left; congruence].
  - destruct (bytes_eqb k id) eqn:E; cbn [keys map fst In].
    + apply bytes_eqb_eq in E. subst k. fold (keys r). split.
      * intros H. left. exact H.
      * intros [H|H]; [exact H | left; congruence].
    + fold (keys r) in *. fold (keys (merge_income r id inc)). rewrite IH. tauto.
Qed.

Lemma NoDup_merge_income : forall o id inc,
  NoDup (keys o) -> NoDup (keys (merge_income o id inc)).
Proof.
  intros o id inc. induction o as [|[k d] r IH]; intros ND; cbn [merge_income].
  - cbn. constructor; [intros [] | constructor].
  - destruct (bytes_eqb k id) eqn:E.
    + exact ND.
    + cbn [keys map fst] in *. fold (keys r) in *. fold (keys (merge_income r id inc)).
      inversion ND as [|? ? Hnin ND']; subst. constructor.
      * rewrite In_keys_merge_income. intros [H|H]; [exact (Hnin H)|].
        subst k. rewrite bytes_eqb_refl in E. discriminate.
      * apply IH. exact ND'.
Qed.

Lemma map_total_merge_income : forall o id inc,
  map_total (merge_income o id inc) = map_total o + ld_total inc.
Proof.
  intros o id inc. induction o as [|[k d] r IH]; cbn [merge_income map_total].
  - lia.
  - destruct (bytes_eqb k id); cbn [map_total].
    + rewrite ld_total_merge. lia.
    + rewrite IH. lia.
Qed.

(* ---------- merge_levels ---------- *)
Lemma merge_levels_cons : forall o k d r,
  merge_levels o ((k, d) :: r) = merge_levels (merge_income o k d) r.
Proof. reflexivity. Qed.

Lemma NoDup_merge_levels : forall i o, NoDup (keys o) -> NoDup (keys (merge_levels o i)).
Proof.
  induction i as [|[k d] r IH]; intros o ND.
  - exact ND.
  - rewrite merge_levels_cons. apply IH. apply NoDup_merge_income. exact ND.
Qed.

Lemma lookup_merge_levels : forall i o id, NoDup (keys i) ->
  lookup (merge_levels o i) id = opt_merge (lookup o id) (lookup i id).
Proof.
  induction i as [|[k d] r IH]; intros o id ND.
  - cbn [merge_levels fold_left lookup]. rewrite opt_merge_None_r. reflexivity.
  - rewrite merge_levels_cons. cbn [keys map fst] in ND. fold (keys r) in ND.
    inversion ND as [|? ? Hnin ND']; subst.
    rewrite (IH _ _ ND'), lookup_merge_income. cbn [lookup].
    destruct (bytes_eqb k id) eqn:E.
    + apply bytes_eqb_eq in E. subst k.
      apply lookup_None_iff in Hnin. rewrite Hnin, opt_merge_None_r. reflexivity.
    + rewrite opt_merge_None_r. reflexivity.
Qed.

Lemma map_total_merge_levels : forall i o,
  map_total (merge_levels o i) = map_total o + map_total i.
Proof.
  induction i as [|[k d] r IH]; intros o.
  - cbn [merge_levels fold_left map_total]. lia.
  - rewrite merge_levels_cons, IH, map_total_merge_income. cbn [map_total]. lia.
Qed.

Lemma In_lookup : forall m id d, NoDup (keys m) -> (In (id, d) m <-> lookup m id = Some d).
Proof.
  induction m as [|[k e] r IH]; intros id d ND; cbn [In lookup].
  - split; [intros [] | discriminate].
  - cbn [keys map fst] in ND. fold (keys r) in ND. inversion ND as [|? ? Hnin ND']; subst.
    destruct (bytes_eqb k id) eqn:E.
    + apply bytes_eqb_eq in E. subst k. split.
      * intros [H|H]; [congruence|]. exfalso. apply Hnin.
        change id with (fst (id, d)). apply in_map. exact H.
      * intros H. left. congruence.
    + apply bytes_eqb_neq in E. rewrite <- (IH id d ND'). split.
      * intros [H|H]; [congruence | exact H].
      * intros H. right. exact H.
Qed.

Lemma lookup_ext_Permutation : forall m m', NoDup (keys m) -> NoDup (keys m') ->
  (forall id, lookup m id = lookup m' id) -> Permutation m m'.
Proof.
  intros m m' ND ND' H. apply NoDup_Permutation.
  - exact (NoDup_map_inv fst m ND).
  - exact (NoDup_map_inv fst m' ND').
  - intros [id d]. rewrite (In_lookup m id d ND), (In_lookup m' id d ND'), H. reflexivity.
Qed.

(* ---------- one collector step ---------- *)
Definition cmap (k : key_kind) (c : collector) : idmap :=
  match k with KEcu => sc_ecu c | KApp => sc_app c | KCtx => sc_ctx c end.

Lemma map_of_collect : forall k c, map_of k (collect c) = cmap k c.
Proof. intros [] c; reflexivity. Qed.

Definition single_dist (k : key_kind) (id : list byte) (s : statistic) : option level_dist :=
  if has_key k id s then Some (level_dist_new (st_level s)) else None.

Lemma cmap_collect_statistic : forall k c s,
  cmap k (collect_statistic c s)
  = match key_of k s with
    | Some id => merge_income (cmap k c) id (level_dist_new (st_level s))
    | None => cmap k c
    end.
Proof.
  intros k c [lv ecu ext vb]. unfold collect_statistic, key_of, NONE_ID.
  cbn [st_level st_ecu st_ext st_verbose].
  destruct k; destruct ext as [[ap ct]|]; destruct ecu as [e|];
    cbn [cmap sc_ecu sc_app sc_ctx]; rewrite ?add_for_level_as_merge; reflexivity.
Qed.

Lemma lookup_collect_statistic : forall k c s id,
  lookup (cmap k (collect_statistic c s)) id
  = opt_merge (lookup (cmap k c) id) (single_dist k id s).
Proof.
  intros k c s id. rewrite cmap_collect_statistic. unfold single_dist, has_key.
  destruct (key_of k s); [apply lookup_merge_income|symmetry; apply opt_merge_None_r].
Qed.

Lemma NoDup_collect_statistic : forall k c s,
  NoDup (keys (cmap k c)) -> NoDup (keys (cmap k (collect_statistic c s))).
Proof.
  intros k c s ND. rewrite cmap_collect_statistic.
  destruct (key_of k s); [apply NoDup_merge_income|]; exact ND.
Qed.

Lemma non_verbose_collect_statistic : forall c s,
  sc_non_verbose (collect_statistic c s) = sc_non_verbose c || negb (st_verbose s).
Proof.
  intros c s. unfold collect_statistic. destruct (st_ext s) as [[ap ct]|]; reflexivity.
Qed.

Lemma total_collect_statistic : forall c s,
  map_total (sc_ecu (collect_statistic c s)) = map_total (sc_ecu c) + 1.
Proof.
  intros c s. change (sc_ecu (collect_statistic c s)) with (cmap KEcu (collect_statistic c s)).
  rewrite cmap_collect_statistic. cbn [key_of]. rewrite map_total_merge_income, ld_total_new. reflexivity.
Qed.

(* ---------- the tally as an opt_merge-homomorphism ---------- *)
Definition tally_ld (k : key_kind) (id : list byte) (l : list statistic) : level_dist :=
  mkLD (tally_lookup k id BNonLog l) (tally_lookup k id BFatal l) (tally_lookup k id BError l)
       (tally_lookup k id BWarning l) (tally_lookup k id BInfo l) (tally_lookup k id BDebug l)
       (tally_lookup k id BVerbose l) (tally_lookup k id BInvalid l).

Definition tally_dist (k : key_kind) (id : list byte) (l : list statistic) : option level_dist :=
  if key_present k id l then Some (tally_ld k id l) else None.

Lemma ld_get_tally_ld : forall b k id l, ld_get b (tally_ld k id l) = tally_lookup k id b l.
Proof. intros [] k id l; reflexivity. Qed.

Lemma tally_lookup_cons : forall k id b s l,
  tally_lookup k id b (s :: l)
  = (if has_key k id s && bucket_eqb (bucket_of (st_level s)) b then 1 else 0)
    + tally_lookup k id b l.
Proof.
  intros k id b s l. unfold tally_lookup, count_where. cbn [filter].
  destruct (has_key k id s && bucket_eqb (bucket_of (st_level s)) b); cbn [length]; lia.
Qed.

Lemma tally_absent : forall k id b l, key_present k id l = false -> tally_lookup k id b l = 0.
Proof.
  intros k id b l. induction l as [|s l IH]; intros H.
  - reflexivity.
  - unfold key_present in *. cbn [existsb] in H. apply orb_false_iff in H. destruct H as [H1 H2].
    rewrite tally_lookup_cons, H1, (IH H2). reflexivity.
Qed.

Lemma tally_dist_cons : forall k id s l,
  tally_dist k id (s :: l) = opt_merge (single_dist k id s) (tally_dist k id l).
Proof.
  intros k id s l. unfold tally_dist, single_dist, key_present. cbn [existsb].
  destruct (has_key k id s) eqn:Hs; cbn [orb].
  - destruct (existsb (has_key k id) l) eqn:Hl; cbn [opt_merge]; f_equal; apply ld_ext; intros b.
    + rewrite ld_get_merge, ld_get_new, !ld_get_tally_ld, tally_lookup_cons, Hs. reflexivity.
    + rewrite ld_get_new, ld_get_tally_ld, tally_lookup_cons, Hs.
      rewrite (tally_absent k id b l Hl). cbn [andb]. lia.
  - destruct (existsb (has_key k id) l) eqn:Hl; cbn [opt_merge]; [|reflexivity].
    f_equal. apply ld_ext. intros b.
    rewrite !ld_get_tally_ld, tally_lookup_cons, Hs. reflexivity.
Qed.

Lemma tally_dist_app : forall k id a b,
  tally_dist k id (a ++ b) = opt_merge (tally_dist k id a) (tally_dist k id b).
Proof.
  intros k id a b. induction a as [|s a IH]; cbn [app].
  - reflexivity.
  - rewrite !tally_dist_cons, IH, opt_merge_assoc. reflexivity.
Qed.

Lemma tally_dist_perm : forall k id l l', Permutation l l' -> tally_dist k id l = tally_dist k id l'.
Proof.
  intros k id l l' P. induction P as [|x l l' P IH|x y l|l l' l'' P1 IH1 P2 IH2].
  - reflexivity.
  - rewrite !tally_dist_cons, IH. reflexivity.
  - rewrite !tally_dist_cons, <- !opt_merge_assoc.
    rewrite (opt_merge_comm (single_dist k id y)). reflexivity.
  - congruence.
Qed.

Lemma non_verbose_spec_app : forall a b,
  non_verbose_spec (a ++ b) = non_verbose_spec a || non_verbose_spec b.
Proof. intros a b. unfold non_verbose_spec. apply existsb_app. Qed.

Lemma non_verbose_spec_perm : forall l l', Permutation l l' -> non_verbose_spec l = non_verbose_spec l'.
Proof.
  intros l l' P. unfold non_verbose_spec.
  induction P as [|x l l' P IH|x y l|l l' l'' P1 IH1 P2 IH2]; cbn [existsb].
  - reflexivity.
  - rewrite IH. reflexivity.
  - rewrite !orb_assoc, (orb_comm (negb (st_verbose y))). reflexivity.
  - congruence.
Qed.

(* ---------- the collector run ---------- *)
Lemma lookup_fold : forall k id l c,
  lookup (cmap k (fold_left collect_statistic l c)) id
  = opt_merge (lookup (cmap k c) id) (tally_dist k id l).
Proof.
  intros k id l. induction l as [|s l IH]; intros c; cbn [fold_left].
  - symmetry. apply opt_merge_None_r.
  - rewrite IH, lookup_collect_statistic, tally_dist_cons, opt_merge_assoc. reflexivity.
Qed.

Lemma NoDup_fold : forall k l c,
  NoDup (keys (cmap k c)) -> NoDup (keys (cmap k (fold_left collect_statistic l c))).
Proof.
  intros k l. induction l as [|s l IH]; intros c ND; cbn [fold_left].
  - exact ND.
  - apply IH. apply NoDup_collect_statistic. exact ND.
Qed.

Lemma non_verbose_fold : forall l c,
  sc_non_verbose (fold_left collect_statistic l c) = sc_non_verbose c || non_verbose_spec l.
Proof.
  induction l as [|s l IH]; intros c; cbn [fold_left].
  - unfold non_verbose_spec. cbn [existsb]. rewrite orb_false_r. reflexivity.
  - rewrite IH, non_verbose_collect_statistic. unfold non_verbose_spec. cbn [existsb].
    rewrite orb_assoc. reflexivity.
Qed.

Lemma total_fold : forall l c,
  map_total (sc_ecu (fold_left collect_statistic l c))
  = map_total (sc_ecu c) + N.of_nat (length l).
Proof.
  induction l as [|s l IH]; intros c; cbn [fold_left length].
  - lia.
  - rewrite IH, total_collect_statistic. lia.
Qed.

Lemma lookup_collect_all : forall k id l,
  lookup (map_of k (collect_all l)) id = tally_dist k id l.
Proof.
  intros k id l. unfold collect_all. rewrite map_of_collect, lookup_fold.
  destruct k; reflexivity.
Qed.

Lemma collect_all_wf : forall l, stat_wf (collect_all l).
Proof.
  intros l k. unfold collect_all. rewrite map_of_collect. apply NoDup_fold.
  destruct k; constructor.
Qed.

Lemma non_verbose_collect_all : forall l, si_non_verbose (collect_all l) = non_verbose_spec l.
Proof.
  intros l. unfold collect_all, collect. cbn [si_non_verbose]. rewrite non_verbose_fold. reflexivity.
Qed.

(* ---------- C10: the result is the tally ---------- *)
Lemma collect_all_tally : forall l : list statistic,
  (forall k, NoDup (keys (map_of k (collect_all l)))) /\
  (forall k id,
     match lookup (map_of k (collect_all l)) id with
     | Some d => key_present k id l = true /\ forall b, ld_get b d = tally_lookup k id b l
     | None => key_present k id l = false
     end) /\
  si_non_verbose (collect_all l) = non_verbose_spec l.
Proof.
  intros l. split; [|split].
  - apply collect_all_wf.
  - intros k id. rewrite lookup_collect_all. unfold tally_dist.
    destruct (key_present k id l).
    + split; [reflexivity | intros b; apply ld_get_tally_ld].
    + reflexivity.
  - apply non_verbose_collect_all.
Qed.

Lemma collect_all_total : forall l : list statistic,
  map_total (si_ecu (collect_all l)) = N.of_nat (length l).
Proof.
  intros l. unfold collect_all, collect. cbn [si_ecu]. rewrite total_fold. reflexivity.
Qed.

(* ---------- stat_equiv ---------- *)
Lemma stat_equiv_intro : forall a b, stat_wf a -> stat_wf b ->
  (forall k id, lookup (map_of k a) id = lookup (map_of k b) id) ->
  si_non_verbose a = si_non_verbose b -> stat_equiv a b.
Proof. intros a b Wa Wb L V. split; [|exact V]. intros k. split; [apply Wa|split; [apply Wb|apply L]]. Qed.

Lemma stat_equiv_refl : forall a, stat_wf a -> stat_equiv a a.
Proof. intros a W. apply stat_equiv_intro; auto. Qed.

Lemma stat_equiv_sym : forall a b, stat_equiv a b -> stat_equiv b a.
Proof.
  intros a b [H Hv]. split; [|symmetry; exact Hv].
  intros k. destruct (H k) as (Na & Nb & L). split; [exact Nb | split; [exact Na|]].
  intros id. symmetry. apply L.
Qed.

Lemma stat_equiv_trans : forall a b c, stat_equiv a b -> stat_equiv b c -> stat_equiv a c.
Proof.
  intros a b c [H1 V1] [H2 V2]. split; [|congruence].
  intros k. destruct (H1 k) as (Na & _ & L1). destruct (H2 k) as (_ & Nc & L2).
  split; [exact Na | split; [exact Nc|]]. intros id. rewrite L1. apply L2.
Qed.

Lemma stat_equiv_wf_l : forall a b, stat_equiv a b -> stat_wf a.
Proof. intros a b [H _] k. apply (H k). Qed.

Lemma stat_equiv_wf_r : forall a b, stat_equiv a b -> stat_wf b.
Proof. intros a b [H _] k. apply (H k). Qed.

Lemma map_of_merge : forall k a b,
  map_of k (merge a b) = merge_levels (map_of k a) (map_of k b).
Proof. intros [] a b; reflexivity. Qed.

Lemma merge_wf : forall a b, stat_wf a -> stat_wf (merge a b).
Proof. intros a b W k. rewrite map_of_merge. apply NoDup_merge_levels. apply W. Qed.

Lemma stat_info_new_wf : stat_wf stat_info_new.
Proof. intros []; constructor. Qed.

Lemma lookup_merge : forall k a b id, stat_wf b ->
  lookup (map_of k (merge a b)) id
  = opt_merge (lookup (map_of k a) id) (lookup (map_of k b) id).
Proof. intros k a b id W. rewrite map_of_merge. apply lookup_merge_levels. apply W. Qed.

Lemma merge_equiv : forall a a' b b',
  stat_equiv a a' -> stat_equiv b b' -> stat_equiv (merge a b) (merge a' b').
Proof.
  intros a a' b b' Ea Eb.
  pose proof (stat_equiv_wf_l _ _ Ea) as Wa. pose proof (stat_equiv_wf_r _ _ Ea) as Wa'.
  pose proof (stat_equiv_wf_l _ _ Eb) as Wb. pose proof (stat_equiv_wf_r _ _ Eb) as Wb'.
  destruct Ea as [Ha Va]. destruct Eb as [Hb Vb]. apply stat_equiv_intro; try (apply merge_wf; assumption).
  - intros k id. rewrite !lookup_merge by assumption.
    destruct (Ha k) as (_ & _ & La). destruct (Hb k) as (_ & _ & Lb).
    rewrite La, Lb. reflexivity.
  - unfold merge. cbn [si_non_verbose]. congruence.
Qed.

(* ---------- C10: merging ---------- *)
Lemma merge_collect_all : forall a b : list statistic,
  stat_equiv (merge (collect_all a) (collect_all b)) (collect_all (a ++ b)).
Proof.
  intros a b. apply stat_equiv_intro; try apply merge_wf; try apply collect_all_wf.
  - intros k id. rewrite lookup_merge by apply collect_all_wf.
    rewrite !lookup_collect_all, tally_dist_app. reflexivity.
  - unfold merge. cbn [si_non_verbose].
    rewrite !non_verbose_collect_all, non_verbose_spec_app. reflexivity.
Qed.

Lemma merge_new_r_eq : forall a, merge a stat_info_new = a.
Proof.
  intros [ap ct ec nv]. unfold merge, merge_levels, stat_info_new.
  cbn [si_app si_ctx si_ecu si_non_verbose fold_left]. rewrite orb_false_r. reflexivity.
Qed.

Lemma collect_all_perm : forall l l', Permutation l l' -> stat_equiv (collect_all l) (collect_all l').
Proof.
  intros l l' P. apply stat_equiv_intro; try apply collect_all_wf.
  - intros k id. rewrite !lookup_collect_all. apply tally_dist_perm. exact P.
  - rewrite !non_verbose_collect_all. apply non_verbose_spec_perm. exact P.
Qed.

(* ---------- C10: any split, order and grouping ---------- *)
Lemma flatten_node : forall a b, flatten (Node a b) = flatten a ++ flatten b.
Proof. intros a b. unfold flatten. cbn [leaves]. apply concat_app. Qed.

Lemma eval_tree_flatten : forall t, stat_equiv (eval_tree t) (collect_all (flatten t)).
Proof.
  induction t as [l|a IHa b IHb].
  - unfold flatten. cbn [eval_tree leaves concat]. rewrite app_nil_r.
    apply stat_equiv_refl, collect_all_wf.
  - cbn [eval_tree]. rewrite flatten_node.
    eapply stat_equiv_trans; [apply merge_equiv; [exact IHa | exact IHb]|].
    apply merge_collect_all.
Qed.

Lemma Permutation_concat' : forall (A : Type) (ls ls' : list (list A)),
  Permutation ls ls' -> Permutation (concat ls) (concat ls').
Proof.
  intros A ls ls' P. rewrite <- (map_id ls), <- (map_id ls'), <- !flat_map_concat_map.
  apply Permutation_flat_map, P.
Qed.

Lemma eval_tree_parts : forall (parts : list (list statistic)) t,
  Permutation (leaves t) parts -> stat_equiv (eval_tree t) (collect_all (concat parts)).
Proof.
  intros parts t P.
  eapply stat_equiv_trans; [apply eval_tree_flatten|].
  apply collect_all_perm. unfold flatten. apply Permutation_concat'. exact P.
Qed.
