(* Proofs/LayoutEncode.v — C02 (encoding): on well-formed messages the crate's serialiser
   [message_bytes] produces exactly the layout [spec_encode] of Spec/Layout.v. *)
From Coq Require Import Lia ZifyBool ZifyN ZifyNat.
From DltV.Model Require Import Bytes RustInt Utf8 Dlt.
From DltV.Spec Require Import WellFormed Layout.
From DltV.Proofs Require Import BytesBasics Fields Lengths Headers ArgsRoundtrip Roundtrip LayoutBits.
Open Scope N_scope.

Lemma u16_len_plus1_text s : wf_text s = true -> u16_len_plus1 s = len s + 1.
Proof. intros W. apply u16_len_plus1_eq, (wf_text_inv s W). Qed.

Lemma storage_eq s : storage_header_bytes s = enc_storage s.
Proof. reflexivity. Qed.

Lemma ext_eq x : wf_ext x = true -> ext_header_bytes x = enc_ext x.
Proof.
  intros W. apply wf_ext_inv in W as (_ & Wt & _). unfold ext_header_bytes, enc_ext.
  now rewrite (msin_enc _ _ Wt).
Qed.

(* ---------- arguments ---------- *)
Definition is_number (v : value) : bool :=
  match v with VBool _ | VString _ | VRaw _ => false | _ => true end.

Lemma enc_arg_number e a : is_number (a_value a) = true ->
  enc_arg e a = put_uint e 4 (word_of_ti (a_ti a)) ++ enc_name_unit e (a_name a) (a_unit a)
                ++ enc_fixed e (a_fp a) ++ enc_number e (a_value a).
Proof. unfold enc_arg. destruct (a_value a); intros H; try discriminate; reflexivity. Qed.

Lemma signed_number e l v : wf_signed_value l v = true ->
  is_number v = true /\ signed_value_bytes e v = enc_number e v.
Proof. destruct l, v; intros H; try discriminate; split; reflexivity. Qed.
Lemma unsigned_number e l v : wf_unsigned_value l v = true ->
  is_number v = true /\ unsigned_value_bytes e v = enc_number e v.
Proof. destruct l, v; intros H; try discriminate; split; reflexivity. Qed.
Lemma float_number e w v : wf_float_value w v = true ->
  is_number v = true /\ float_value_bytes e v = enc_number e v.
Proof. destruct w, v; intros H; try discriminate; split; reflexivity. Qed.

Lemma fp_eq e fp : fp_bytes e fp = enc_fixed e fp.
Proof. destruct fp as [[q [z|z]]|]; reflexivity. Qed.

Lemma name_eq e name : wf_opt wf_text name = true -> name_bytes e name = enc_name e name.
Proof. destruct name as [n|]; [|reflexivity]. intros Wn. cbn [name_bytes enc_name]. now rewrite (u16_len_plus1_text n Wn). Qed.

Lemma name_unit_eq e t name unit :
  nu_cond (ti_var_info t) name unit = true -> nu_bytes e t name unit = enc_name_unit e name unit.
Proof.
  intros W. apply nu_cond_inv in W as (E1 & E2 & W1 & W2). apply Bool.eqb_prop in E1, E2.
  unfold nu_bytes, enc_name_unit.
  destruct (ti_var_info t), name as [n|], unit as [u|]; try discriminate; [|reflexivity].
  now rewrite (u16_len_plus1_text n W1), (u16_len_plus1_text u W2), <- !app_assoc.
Qed.

(* signed, unsigned and float arguments (with or without fixed point) share one layout *)
Lemma number_eq e a vb :
  wf_coding (ti_coding (a_ti a)) = true ->
  nu_cond (ti_var_info (a_ti a)) (a_name a) (a_unit a) = true ->
  is_number (a_value a) = true /\ vb = enc_number e (a_value a) ->
  buf_ti_name_unit e (a_ti a) (a_name a) (a_unit a) (a_fp a) ++ vb = enc_arg e a.
Proof.
  intros Wc W [Hn ->]. rewrite (enc_arg_number e a Hn), buf_ti_name_unit_eq, (name_unit_eq e _ _ _ W), fp_eq.
  unfold ti_bytes. now rewrite (ti_enc _ Wc), <- !app_assoc.
Qed.

Lemma arg_eq e a : wf_arg a = true -> arg_bytes e a = enc_arg e a.
Proof.
  intros W. apply wf_arg_cases in W as [Wc W]. unfold arg_bytes.
  destruct (numeric_of (ti_kind_of (a_ti a))) as [[fw wv]|] eqn:N.
  - destruct W as (Hnu & _ & Hv). revert N.
    destruct (ti_kind_of (a_ti a)) as [|l|w|l|w|w| |]; intros N; try discriminate N; injection N as _ <-;
      apply (number_eq e a _ Wc Hnu).
    + apply (signed_number e l _ Hv).
    + apply (signed_number e _ _ Hv).
    + apply (unsigned_number e l _ Hv).
    + apply (unsigned_number e _ _ Hv).
    + apply (float_number e w _ Hv).
  - (* bool, string, raw: type info, [size of the value,] name, value *)
    destruct W as (Hn & _ & Hv). apply name_cond_inv in Hn as (E & _ & Wn). apply Bool.eqb_prop in E.
    pose proof (name_eq e _ Wn) as En. unfold enc_arg, buf_ti_name, ti_bytes. rewrite (ti_enc _ Wc).
    revert N Hv. destruct (ti_kind_of (a_ti a)); intros N Hv; try discriminate N;
      destruct (a_value a) as [x| | | | | | | | | | | | |s|bs]; try discriminate Hv; cbn [named_value] in Hv.
    + fold (name_bytes e (a_name a)). now rewrite En, <- app_assoc.
    + rewrite <- En, (u16_len_plus1_text s Hv).
      destruct (ti_var_info (a_ti a)), (a_name a) as [n|]; try discriminate E; cbn [name_bytes];
        now rewrite <- ?app_assoc.
    + apply N.leb_le in Hv. rewrite <- En, (N.mod_small (len bs)) by lia.
      destruct (ti_var_info (a_ti a)), (a_name a) as [n|]; try discriminate E; cbn [name_bytes];
        now rewrite <- ?app_assoc.
Qed.

Lemma flat_map_eq {A B} (f g : A -> list B) l :
  (forall a, In a l -> f a = g a) -> flat_map f l = flat_map g l.
Proof. intros H. rewrite !flat_map_concat_map. f_equal. now apply map_ext_in. Qed.

(* ---------- payload ---------- *)
Lemma payload_eq e x p : wf_kind x p = true -> payload_bytes e p = enc_payload e p.
Proof.
  unfold wf_kind. intros W. destruct p as [args|id bs|ct bs|slices]; try reflexivity;
    (destruct x as [x|]; [|discriminate]); apply andb_true_iff in W as [_ W]; rewrite forallb_forall in W;
    cbn [payload_bytes enc_payload]; apply flat_map_eq.
  - intros a Ha. apply arg_eq, W, Ha.
  - intros s Hs. apply W, N.leb_le in Hs. now rewrite (N.mod_small (len s)) by lia.
Qed.

(* ---------- the whole message ---------- *)
Theorem spec_encode_correct m : wf_message m = true -> message_bytes m = spec_encode m.
Proof.
  intros W. destruct (wf_message_inv m W) as [_ B].
  unfold message_bytes, spec_encode. cbv zeta. f_equal.
  set (h := m_header m) in *. set (x := m_ext m) in *.
  rewrite <- (payload_eq (h_endian h) x (m_payload m) (wb_kind _ _ _ B)).
  replace (match x with Some x0 => enc_ext x0 | None => [] end) with (opt_ext_bytes x)
    by (pose proof (wb_ext _ _ _ B); destruct x; [now apply ext_eq | reflexivity]).
  (* LEN is the length of what follows the storage header, i.e. overall_length *)
  pose proof (len_body_bytes h x _ B) as L. unfold body_bytes, std_header_bytes in L.
  rewrite !len_app, len_put_uint in L. change (len [_; _]) with 2 in L.
  unfold std_header_bytes. rewrite <- !app_assoc. unfold put_zstring, zeros in *. unfold pad4.
  replace (4 + _ + len (opt_ext_bytes x) + _) with (overall_length h) by (rewrite !len_app; lia).
  do 2 f_equal. unfold header_type_byte. rewrite (wb_has _ _ _ B).
  rewrite <- (htyp_enc (present x) (match h_endian h with BE => true | LE => false end))
    by apply (wf_std_inv h), (wb_std _ _ _ B).
  now destruct (h_endian h), (h_ecu h), (h_session h), (h_timestamp h).
Qed.
