(* Proofs/FibexLoad.v — running the loader over FIBEX elements written in the canonical event shape, with
   the harmless [noise] of Spec/FibexPretty.v between them and inside SIGNAL / CODING, collects
   exactly those elements (C11, first half), for any order of elements and any split over files. *)
From Coq Require Import Lia ZifyBool ZifyN ZifyNat.
From Coq Require Import Sorting.Permutation.
From Coq.Strings Require Import Ascii String.
From DltV.Model Require Import Bytes RustInt Dlt Fibex.
From DltV.Spec Require Import FibexSpec FibexPretty.
From DltV.Proofs Require Import BytesBasics FibexTerm FibexLookup FibexDenote.
Open Scope N_scope.

Inductive silent : reader -> reader -> Prop :=
| silent_refl r : silent r r
| silent_step r r1 r2 : read_event_step r = SCont r1 -> silent r1 r2 -> silent r r2.

Lemma silent_trans r1 r2 r3 : silent r1 r2 -> silent r2 r3 -> silent r1 r3.
Proof. induction 1; intros; [assumption|]. eapply silent_step; eauto. Qed.

Lemma silent_run_event r r' : silent r r' -> run_event r = run_event r'.
Proof. induction 1 as [|r r1 r2 H _ IH]; [reflexivity|]. rewrite run_event_eq, H. exact IH. Qed.

Definition ev_ret (r : reader) (e : event) (r' : reader) : Prop :=
  exists r0, silent r r0 /\ read_event_step r0 = SRet e r'.

Lemma ev_ret_run_event r e r' : ev_ret r e r' -> run_event r = ROk (e, r').
Proof.
  intros (r0 & Hs & Hr). rewrite (silent_run_event r r0 Hs), run_event_eq, Hr. reflexivity.
Qed.

Lemma ev_ret_silent r r0 e r' : silent r r0 -> ev_ret r0 e r' -> ev_ret r e r'.
Proof. intros Hs (r1 & Hs1 & Hr). exists r1. split; [eapply silent_trans; eauto|exact Hr]. Qed.

(* the loops only look at what read_event returns *)
Lemma run_pdu_silent r r' acc : silent r r' -> run_pdu r acc = run_pdu r' acc.
Proof. intros H. rewrite (run_pdu_eq r), (run_pdu_eq r'), (silent_run_event r r' H). reflexivity. Qed.

Lemma run_frame_silent r r' acc ext : silent r r' -> run_frame r acc ext = run_frame r' acc ext.
Proof.
  intros H. rewrite (run_frame_eq r), (run_frame_eq r'), (silent_run_event r r' H). reflexivity.
Qed.

Lemma inert_step e l r :
  inert e = true -> r_events r = e :: l -> read_event_step r = SCont (set_events l r).
Proof.
  intros Hi He. unfold read_event_step. rewrite He.
  destruct e as [n a|n a|n|t| |]; cbn [inert] in Hi; try reflexivity; try discriminate.
  - unfold start_arm. destruct (classify n); try discriminate; reflexivity.
  - unfold empty_arm. destruct (classify n); try discriminate; reflexivity.
  - unfold end_arm. destruct (classify n); try discriminate; reflexivity.
Qed.

(* what the Start arm of a tag does when the next XML event is the text [t] *)
Definition text_arm (tg : tag) (t : bstr) : option (reader -> reader) :=
  match tg with
  | T_SHORT_NAME => Some (set_short_name (Some t))
  | T_PDU_TYPE | T_FRAME_TYPE => Some (set_type (Some t))
  | T_APPLICATION_ID => Some (set_application_id (Some t))
  | T_CONTEXT_ID => Some (set_context_id (Some t))
  | T_MESSAGE_INFO => Some (set_message_info (Some t))
  | T_MESSAGE_TYPE => Some (set_message_type (Some t))
  | T_DESC => Some (set_description (Some t))
  | T_BYTE_LENGTH => option_map (fun v => set_byte_length (Some v)) (usize_from_str t)
  | T_SEQUENCE_NUMBER => option_map (fun v => set_sequence_number (Some v)) (usize_from_str t)
  | _ => None
  end.

Lemma step_text n a t l r f :
  text_arm (classify n) t = Some f -> r_events r = XStart n a :: XText (Some t) :: l ->
  read_event_step r = SCont (f (set_events l r)).
Proof.
  intros Hf He. unfold read_event_step, start_arm, text_into, usize_into, read_usize.
  rewrite He. cbn [read_text].
  destruct (classify n); cbn [text_arm] in Hf; try discriminate Hf;
    try (injection Hf as <-; reflexivity);
    destruct (usize_from_str t); try discriminate Hf; injection Hf as <-; reflexivity.
Qed.

(* the fields of the item being read (an instance, a SIGNAL, a CODING): no text arm writes them *)
Definition keeps_item (r r' : reader) : Prop :=
  r_id r' = r_id r /\ r_ref r' = r_ref r /\ r_base_data_type r' = r_base_data_type r.

Lemma text_arm_spec tg t f : text_arm tg t = Some f ->
  forall r, r_events (f r) = r_events r /\ keeps_item r (f r) /\
            forall l l', set_events l (f (set_events l' r)) = set_events l (f r).
Proof.
  intros Hf r.
  destruct tg; cbn [text_arm] in Hf; try discriminate Hf;
    try (injection Hf as <-; repeat split);
    destruct (usize_from_str t); try discriminate Hf; injection Hf as <-; repeat split.
Qed.

Lemma set_events_same l r : r_events r = l -> set_events l r = r.
Proof. destruct r. cbn. intros ->. reflexivity. Qed.

(* <name>t</name> *)
Lemma silent_text_el name t f l r :
  text_arm (classify (bs name)) t = Some f -> inert (XEnd (bs name)) = true ->
  r_events r = text_el name t ++ l -> silent r (set_events l (f r)).
Proof.
  intros Hf Hi He.
  destruct (text_arm_spec _ _ _ Hf (set_events (XEnd (bs name) :: l) r)) as (Hev & _ & _).
  destruct (text_arm_spec _ _ _ Hf r) as (_ & _ & Hset).
  eapply silent_step; [exact (step_text _ _ _ _ _ _ Hf He)|].
  eapply silent_step; [exact (inert_step _ _ _ Hi Hev)|].
  rewrite (Hset l). apply silent_refl.
Qed.

(* the same or nothing at all, for a field [F] that is still empty *)
Lemma silent_opt_text_el name o (F : option bstr -> reader -> reader) l r :
  (forall t, text_arm (classify (bs name)) t = Some (F (Some t))) -> inert (XEnd (bs name)) = true ->
  F None r = r -> r_events r = opt_text_el name o ++ l -> silent r (set_events l (F o r)).
Proof.
  intros Hf Hi Hn He. destruct o as [t|].
  - apply (silent_text_el name t); [apply Hf|exact Hi|exact He].
  - rewrite Hn, (set_events_same l r He). apply silent_refl.
Qed.

Lemma text_arm_decimal tg s v :
  (forall t, text_arm tg t = option_map (fun v => s (Some v)) (usize_from_str t)) -> v < 2 ^ 64 ->
  text_arm tg (decimal v) = Some (s (Some v)).
Proof. intros H Hv. rewrite H, (usize_from_str_decimal v Hv). reflexivity. Qed.

Definition quiet (r r' : reader) : Prop := keeps_item r r' /\ forall g, run_file r g = run_file r' g.

Lemma quiet_refl r : quiet r r.
Proof. repeat split. Qed.

Lemma quiet_trans r1 r2 r3 : quiet r1 r2 -> quiet r2 r3 -> quiet r1 r3.
Proof.
  intros [(A1 & B1 & C1) R1] [(A2 & B2 & C2) R2]. split; [repeat split; congruence|].
  intros g. rewrite R1. apply R2.
Qed.

Lemma run_file_cont r r1 g : read_event_step r = SCont r1 -> run_file r g = run_file r1 g.
Proof. intros H. rewrite (run_file_eq r), (run_file_eq r1), (run_event_eq r), H. reflexivity. Qed.

(* events on which the per-file loop does more than go on with the next one *)
Definition opens (e : event) : bool :=
  match e with EPduStart _ | EFrameStart _ | EEof => true | _ => false end.

Definition collect (g : gathered) (e : event) : gathered :=
  match e with
  | ESignal id c => gather_step g (ElSignal id c)
  | ECoding id b => gather_step g (ElCoding id b)
  | _ => g
  end.

Lemma run_file_step_ret r e r1 g :
  read_event_step r = SRet e r1 -> opens e = false -> run_file r g = run_file r1 (collect g e).
Proof.
  intros H Ho. rewrite run_file_eq, run_event_eq, H.
  destruct e; try discriminate Ho; reflexivity.
Qed.

Lemma quiet_cont r r1 : read_event_step r = SCont r1 -> keeps_item r r1 -> quiet r r1.
Proof. intros H Hk. split; [exact Hk|]. intros g. apply run_file_cont, H. Qed.

Lemma text_tag_arm tg t : text_tag tg = true -> exists f, text_arm tg t = Some f.
Proof. destruct tg; try discriminate; eexists; reflexivity. Qed.

Lemma num_tag_arm tg t v :
  num_tag tg = true -> usize_from_str t = Some v -> exists f, text_arm tg t = Some f.
Proof. intros Ht Hv. destruct tg; try discriminate Ht; cbn [text_arm]; rewrite Hv; eexists; reflexivity. Qed.

Lemma noise_run : forall n, noise n ->
  forall r rest, r_events r = n ++ rest -> exists r', r_events r' = rest /\ quiet r r'.
Proof.
  (* each kind of noise is one quiet step to a reader [r1] that has the rest of the run pending *)
  assert (Hgo : forall r r1 rest, quiet r r1 ->
                  (exists r', r_events r' = rest /\ quiet r1 r') ->
                  exists r', r_events r' = rest /\ quiet r r').
  { intros r r1 rest Hq (r' & He & Hq'). exists r'. split; [exact He|eapply quiet_trans; eassumption]. }
  induction 1 as [|e l Hi _ IH|n a t l Ht _ IH|n a t v l Ht Hv _ IH|n a x l Ht _ IH|n a l Ht _ IH|n l Ht _ IH];
    intros r rest He; cbn [app] in He.
  - exists r. split; [exact He|apply quiet_refl].
  - apply (Hgo r (set_events (l ++ rest) r)); [|apply IH; reflexivity].
    apply quiet_cont; [exact (inert_step _ _ _ Hi He)|repeat split].
  - destruct (text_tag_arm _ t Ht) as (f & Hf).
    destruct (text_arm_spec _ _ _ Hf (set_events (l ++ rest) r)) as (Hev & Hk & _).
    apply (Hgo r (f (set_events (l ++ rest) r))); [|apply IH; exact Hev].
    apply quiet_cont; [exact (step_text _ _ _ _ _ _ Hf He)|exact Hk].
  - destruct (num_tag_arm _ t v Ht Hv) as (f & Hf).
    destruct (text_arm_spec _ _ _ Hf (set_events (l ++ rest) r)) as (Hev & Hk & _).
    apply (Hgo r (f (set_events (l ++ rest) r))); [|apply IH; exact Hev].
    apply quiet_cont; [exact (step_text _ _ _ _ _ _ Hf He)|exact Hk].
  - apply (Hgo r (set_description (fst (read_text (x :: l ++ rest))) (set_events (l ++ rest) r)));
      [|apply IH; reflexivity].
    apply quiet_cont; [|repeat split].
    unfold read_event_step, start_arm. rewrite He, Ht.
    destruct x as [xn xa|xn xa|xn|[t|]| |]; reflexivity.
  - apply (Hgo r (set_message_type None (set_message_info None (set_context_id None
                   (set_application_id None (set_events (l ++ rest) r))))));
      [|apply IH; reflexivity].
    apply quiet_cont; [|repeat split].
    unfold read_event_step, start_arm. rewrite He, Ht. reflexivity.
  - apply (Hgo r (set_message_info None (set_message_type None (set_context_id None
                   (set_application_id None (set_events (l ++ rest) r))))));
      [|apply IH; reflexivity].
    split; [repeat split|]. intros g.
    apply (run_file_step_ret r (EManufacturerExtension (r_message_type r) (r_message_info r)
                                  (r_application_id r) (r_context_id r))); [|reflexivity].
    unfold read_event_step, end_arm. rewrite He, Ht. reflexivity.
Qed.

Lemma noise_app a b : noise a -> noise b -> noise (a ++ b).
Proof.
  induction 1; intros Hb; cbn [app];
    [exact Hb|apply noise_inert|apply noise_text|eapply noise_num|apply noise_desc
    |apply noise_ext_start|apply noise_ext_end]; eauto.
Qed.

Lemma run_signal_padded id cr n1 n2 r rest g :
  noise n1 -> noise n2 ->
  r_events r = [XStart (bs "SIGNAL") [id_attr_of id]] ++ n1
               ++ [XEmpty (bs "CODING-REF") [id_ref_attr_of cr]] ++ n2
               ++ [XEnd (bs "SIGNAL")] ++ rest ->
  exists r', r_events r' = rest /\ run_file r g = run_file r' (gather_step g (ElSignal id cr)).
Proof.
  intros Hn1 Hn2 He. cbn [app] in He.
  set (t2 := n2 ++ XEnd (bs "SIGNAL") :: rest) in He.
  set (t1 := n1 ++ XEmpty (bs "CODING-REF") [id_ref_attr_of cr] :: t2) in He.
  destruct (noise_run n1 Hn1 (set_ref None (set_id (Some id) (set_events t1 r))) _ eq_refl)
    as (r2 & E2 & (K2 & _ & _) & R2).
  destruct (noise_run n2 Hn2 (set_ref (Some cr) (set_events t2 r2)) _ eq_refl)
    as (r4 & E4 & (K4i & K4r & _) & R4).
  exists (set_ref None (set_id None (set_events rest r4))). split; [reflexivity|].
  rewrite (run_file_cont r _ g) by (unfold read_event_step; rewrite He; reflexivity).
  rewrite R2.
  rewrite (run_file_cont r2 _ g) by (unfold read_event_step; rewrite E2; reflexivity).
  rewrite R4.
  apply (run_file_step_ret r4 (ESignal id cr)); [|reflexivity].
  unfold read_event_step, end_arm. rewrite E4, K4i, K4r. cbn [r_id r_ref set_ref set_events]. rewrite K2.
  reflexivity.
Qed.

Lemma run_coding_padded id b n1 n2 n3 r rest g :
  noise n1 -> noise n2 -> noise n3 ->
  r_events r = [XStart (bs "CODING") [id_attr_of id]] ++ n1
               ++ [XStart (bs "CODED-TYPE") [Attr (bs "ho:BASE-DATA-TYPE") (Some b)]] ++ n2
               ++ [XEnd (bs "CODED-TYPE")] ++ n3
               ++ [XEnd (bs "CODING")] ++ rest ->
  exists r', r_events r' = rest /\ run_file r g = run_file r' (gather_step g (ElCoding id b)).
Proof.
  intros Hn1 Hn2 Hn3 He. cbn [app] in He.
  assert (Hn : noise (n2 ++ XEnd (bs "CODED-TYPE") :: n3)).
  { apply noise_app; [exact Hn2|]. apply noise_inert; [reflexivity|exact Hn3]. }
  set (t2 := n2 ++ XEnd (bs "CODED-TYPE") :: n3 ++ XEnd (bs "CODING") :: rest) in He.
  set (t1 := n1 ++ XStart (bs "CODED-TYPE") [Attr (bs "ho:BASE-DATA-TYPE") (Some b)] :: t2) in He.
  destruct (noise_run n1 Hn1 (set_base_data_type None (set_id (Some id) (set_events t1 r))) _ eq_refl)
    as (r2 & E2 & (K2 & _ & _) & R2).
  destruct (noise_run _ Hn (set_base_data_type (Some b) (set_events t2 r2)) (XEnd (bs "CODING") :: rest))
    as (r4 & E4 & (K4i & _ & K4b) & R4).
  { unfold t2. rewrite <- app_assoc. reflexivity. }
  exists (set_base_data_type None (set_id None (set_events rest r4))). split; [reflexivity|].
  rewrite (run_file_cont r _ g) by (unfold read_event_step; rewrite He; reflexivity).
  rewrite R2.
  rewrite (run_file_cont r2 _ g) by (unfold read_event_step; rewrite E2; reflexivity).
  rewrite R4.
  apply (run_file_step_ret r4 (ECoding id b)); [|reflexivity].
  unfold read_event_step, end_arm. rewrite E4, K4i, K4b.
  cbn [r_id r_base_data_type set_base_data_type set_events]. rewrite K2.
  reflexivity.
Qed.

(* one step, the reader it leads to in normal form (a reader left as a tower of setters is
   expanded field by field, tower by tower, when two of them are compared) *)
Ltac step_nf := lazy -[decimal]; reflexivity.

Ltac open_reader r :=
  destruct r as [evs f1 f2 f3 f4 f5 f6 f7 f8 f9 f10 f11 f12];
  cbn [r_events r_short_name r_description r_byte_length] in *; subst.

(* <name>n</name> with n printed by [decimal], n < 2^64 by [H], read into the numeric field [s] *)
Ltac num_el name s H :=
  eapply (silent_text_el name);
  [apply (text_arm_decimal _ s); [reflexivity|exact H]|reflexivity|reflexivity].

(* the fields of the enclosing PDU or FRAME: an instance leaves them alone *)
Definition keeps_head (r r' : reader) : Prop :=
  r_short_name r' = r_short_name r /\ r_description r' = r_description r /\
  r_byte_length r' = r_byte_length r.

Lemma seqs_ok_cons a t : seqs_ok (a :: t) = true -> fst a < 2 ^ 64 /\ seqs_ok t = true.
Proof. unfold seqs_ok. cbn [forallb]. rewrite andb_true_iff. intros [H1 H2]. split; [lia|exact H2]. Qed.

(* [run r acc] is the loop that reads the instances of a PDU or FRAME into [acc] *)
Lemma instances_run {X} (render : N * bstr -> list xevent) (run : reader -> list (N * bstr) -> X) :
  (forall r i rest acc, fst i < 2 ^ 64 -> r_events r = render i ++ rest ->
     exists r', run r acc = run r' (acc ++ [i]) /\ r_events r' = rest /\ keeps_head r r') ->
  forall l acc r rest, seqs_ok l = true -> r_events r = flat_map render l ++ rest ->
  exists r', run r acc = run r' (acc ++ l) /\ r_events r' = rest /\ keeps_head r r'.
Proof.
  intros Hstep. induction l as [|a t IH]; intros acc r rest Hok He.
  - exists r. rewrite app_nil_r. repeat split. exact He.
  - apply seqs_ok_cons in Hok. destruct Hok as [Ha Hok].
    cbn [flat_map] in He. rewrite <- app_assoc in He.
    destruct (Hstep r a _ acc Ha He) as (r1 & R1 & E1 & A1 & B1 & C1).
    destruct (IH (acc ++ [a]) r1 rest Hok E1) as (r2 & R2 & E2 & A2 & B2 & C2).
    exists r2. rewrite R1, R2, <- app_assoc. repeat split; congruence.
Qed.

Lemma run_signal_instance r i rest acc :
  fst i < 2 ^ 64 -> r_events r = render_signal_instance i ++ rest ->
  exists r', run_pdu r acc = run_pdu r' (acc ++ [i]) /\ r_events r' = rest /\ keeps_head r r'.
Proof.
  intros Hi He. open_reader r. eexists. split.
  - erewrite run_pdu_eq, (ev_ret_run_event _ (ESignalInstance instance_id (fst i) (snd i))),
      <- surjective_pairing; [reflexivity|].
    eexists. split.
    + eapply silent_step; [step_nf|].
      eapply silent_trans; [num_el "SEQUENCE-NUMBER"%string set_sequence_number Hi|].
      eapply silent_step; [step_nf|apply silent_refl].
    + step_nf.
  - repeat split.
Qed.

Lemma run_pdu_open r p rest :
  ap_byte_length p < 2 ^ 64 ->
  r_events r = [XStart (bs "PDU") [id_attr_of (ap_id p)]]
               ++ text_el "SHORT-NAME" (ap_short_name p) ++ opt_text_el "DESC" (ap_desc p)
               ++ text_el "BYTE-LENGTH" (decimal (ap_byte_length p)) ++ text_el "PDU-TYPE" (bs "OTHER")
               ++ [XStart (bs "SIGNAL-INSTANCES") []] ++ rest ->
  exists r1 r2, read_event_step r = SRet (EPduStart (ap_id p)) r1 /\ silent r1 r2 /\
                r_events r2 = rest /\ r_description r2 = ap_desc p /\
                r_byte_length r2 = Some (ap_byte_length p).
Proof.
  intros Hb He. open_reader r. do 2 eexists. split; [step_nf|]. split.
  - eapply silent_trans; [eapply (silent_text_el "SHORT-NAME"); reflexivity|].
    eapply silent_trans; [apply (silent_opt_text_el "DESC" (ap_desc p) set_description); reflexivity|].
    eapply silent_trans; [num_el "BYTE-LENGTH"%string set_byte_length Hb|].
    eapply silent_trans; [eapply (silent_text_el "PDU-TYPE"); reflexivity|].
    eapply silent_step; [eapply inert_step; [|reflexivity]; reflexivity|apply silent_refl].
  - repeat split.
Qed.

Lemma run_pdu_close r bl rest :
  r_events r = [XEnd (bs "SIGNAL-INSTANCES"); XEnd (bs "PDU")] ++ rest -> r_byte_length r = Some bl ->
  exists r', ev_ret r (EPduEnd (r_short_name r) (r_description r) bl) r' /\ r_events r' = rest.
Proof.
  intros He Hb. open_reader r. eexists. split; [eexists; split|].
  - eapply silent_step; [step_nf|apply silent_refl].
  - step_nf.
  - reflexivity.
Qed.

Lemma run_pdu_element p r rest g :
  element_ok (ElPdu p) = true -> r_events r = render_pdu p ++ rest ->
  exists r', r_events r' = rest /\ run_file r g = run_file r' (gather_step g (ElPdu p)).
Proof.
  intros Hok He. cbn [element_ok] in Hok. rewrite !andb_true_iff in Hok.
  destruct Hok as [[[_ _] Hbl] Hseq].
  unfold render_pdu in He. rewrite <- !app_assoc in He.
  destruct (run_pdu_open r p _ ltac:(lia) He) as (r1 & r2 & Hstep & Hsil & He2 & Hd2 & Hb2).
  destruct (instances_run _ run_pdu run_signal_instance (ap_signals p) [] r2 _ Hseq He2)
    as (r3 & Hrun & He3 & _ & Hd3 & Hb3).
  destruct (run_pdu_close r3 (ap_byte_length p) rest He3 ltac:(congruence)) as (r' & Hr & He').
  exists r'. split; [exact He'|].
  rewrite run_file_eq, run_event_eq, Hstep, (run_pdu_silent r1 r2 [] Hsil), Hrun,
    run_pdu_eq, (ev_ret_run_event r3 _ r' Hr), Hd3, Hd2.
  reflexivity.
Qed.

Lemma run_pdu_instance ext r i rest acc :
  fst i < 2 ^ 64 -> r_events r = render_pdu_instance i ++ rest ->
  exists r', run_frame r acc ext = run_frame r' (acc ++ [i]) ext /\ r_events r' = rest /\ keeps_head r r'.
Proof.
  intros Hi He. open_reader r. eexists. split.
  - erewrite run_frame_eq, (ev_ret_run_event _ (EPduInstance instance_id (snd i) (fst i))),
      <- surjective_pairing; [reflexivity|].
    eexists. split.
    + eapply silent_step; [step_nf|].
      eapply silent_step; [step_nf|].
      num_el "SEQUENCE-NUMBER"%string set_sequence_number Hi.
    + step_nf.
  - repeat split.
Qed.

Lemma run_frame_open r f rest :
  af_byte_length f < 2 ^ 64 ->
  r_events r = [XStart (bs "FRAME") [id_attr_of (af_id f)]]
               ++ text_el "SHORT-NAME" (af_short_name f)
               ++ text_el "BYTE-LENGTH" (decimal (af_byte_length f))
               ++ text_el "FRAME-TYPE" (bs "OTHER") ++ [XStart (bs "PDU-INSTANCES") []] ++ rest ->
  exists r1 r2, read_event_step r = SRet (EFrameStart (af_id f)) r1 /\ silent r1 r2 /\
                r_events r2 = rest /\ r_short_name r2 = Some (af_short_name f) /\
                r_byte_length r2 = Some (af_byte_length f).
Proof.
  intros Hb He. open_reader r. do 2 eexists. split; [step_nf|]. split.
  - eapply silent_trans; [eapply (silent_text_el "SHORT-NAME"); reflexivity|].
    eapply silent_trans; [num_el "BYTE-LENGTH"%string set_byte_length Hb|].
    eapply silent_trans; [eapply (silent_text_el "FRAME-TYPE"); reflexivity|].
    eapply silent_step; [eapply inert_step; [|reflexivity]; reflexivity|apply silent_refl].
  - repeat split.
Qed.

Lemma run_frame_mid r f rest :
  r_events r = [XEnd (bs "PDU-INSTANCES"); XStart (bs "MANUFACTURER-EXTENSION") []]
               ++ opt_text_el "MESSAGE_TYPE" (af_message_type f)
               ++ opt_text_el "MESSAGE_INFO" (af_message_info f)
               ++ opt_text_el "APPLICATION_ID" (af_application_id f)
               ++ opt_text_el "CONTEXT_ID" (af_context_id f)
               ++ [XEnd (bs "MANUFACTURER-EXTENSION")] ++ rest ->
  exists r', ev_ret r (EManufacturerExtension (af_message_type f) (af_message_info f)
                         (af_application_id f) (af_context_id f)) r' /\
             r_events r' = rest /\ keeps_head r r'.
Proof.
  intros He. open_reader r. eexists. split; [eexists; split|].
  - eapply silent_step; [step_nf|].
    eapply silent_step; [step_nf|].
    eapply silent_trans;
      [apply (silent_opt_text_el "MESSAGE_TYPE" (af_message_type f) set_message_type); reflexivity|].
    eapply silent_trans;
      [apply (silent_opt_text_el "MESSAGE_INFO" (af_message_info f) set_message_info); reflexivity|].
    eapply silent_trans;
      [apply (silent_opt_text_el "APPLICATION_ID" (af_application_id f) set_application_id); reflexivity|].
    apply (silent_opt_text_el "CONTEXT_ID" (af_context_id f) set_context_id); reflexivity.
  - step_nf.
  - repeat split.
Qed.

Lemma run_frame_close r sn bl rest :
  r_events r = [XEnd (bs "FRAME")] ++ rest -> r_short_name r = Some sn -> r_byte_length r = Some bl ->
  exists r', ev_ret r (EFrameEnd sn bl) r' /\ r_events r' = rest.
Proof.
  intros He Hs Hb. open_reader r. eexists. split; [eexists; split|].
  - apply silent_refl.
  - step_nf.
  - reflexivity.
Qed.

Lemma run_frame_element f r rest g :
  element_ok (ElFrame f) = true -> r_events r = render_frame f ++ rest ->
  exists r', r_events r' = rest /\ run_file r g = run_file r' (gather_step g (ElFrame f)).
Proof.
  intros Hok He. cbn [element_ok] in Hok. rewrite !andb_true_iff in Hok.
  destruct Hok as [[[[[[_ Hbl] _] _] _] _] Hseq].
  unfold render_frame in He. rewrite <- !app_assoc in He.
  destruct (run_frame_open r f _ ltac:(lia) He) as (r1 & r2 & Hstep & Hsil & He2 & Hs2 & Hb2).
  destruct (instances_run _ _ (run_pdu_instance (None, None, None, None)) (af_pdus f) [] r2 _ Hseq He2)
    as (r3 & Hrun & He3 & Hs3 & _ & Hb3).
  cbn [app] in He3.
  destruct (run_frame_mid r3 f _ He3) as (r4 & Hr4 & He4 & (Hs4 & _ & Hb4)).
  destruct (run_frame_close r4 (af_short_name f) (af_byte_length f) rest He4
              ltac:(congruence) ltac:(congruence)) as (r' & Hr' & He').
  exists r'. split; [exact He'|].
  rewrite run_file_eq, run_event_eq, Hstep, (run_frame_silent r1 r2 [] _ Hsil), Hrun,
    run_frame_eq, (ev_ret_run_event r3 _ r4 Hr4), run_frame_eq, (ev_ret_run_event r4 _ r' Hr').
  reflexivity.
Qed.

Lemma pad_element_run e evs r rest g :
  pad_element e evs -> element_ok e = true -> r_events r = evs ++ rest ->
  exists r', r_events r' = rest /\ run_file r g = run_file r' (gather_step g e).
Proof.
  intros Hp Hok He.
  destruct Hp as [p|f|id cr n1 n2 Hn1 Hn2|id b n1 n2 n3 Hn1 Hn2 Hn3].
  - apply run_pdu_element; assumption.
  - apply run_frame_element; assumption.
  - apply run_signal_padded with (n1 := n1) (n2 := n2); try assumption.
    rewrite He, <- !app_assoc. reflexivity.
  - apply run_coding_padded with (n1 := n1) (n2 := n2) (n3 := n3); try assumption.
    rewrite He, <- !app_assoc. reflexivity.
Qed.

Lemma pad_elements_run : forall els mid, pad_elements els mid ->
  forall r g, elements_ok els = true -> r_events r = mid ->
  run_file r g = ROk (gathered_of els g).
Proof.
  induction 1 as [n Hn|n e evs t rest Hn He Ht IH]; intros r g Hok Hev.
  - rewrite <- (app_nil_r n) in Hev.
    destruct (noise_run n Hn r [] Hev) as (r' & He' & _ & Hrun).
    rewrite Hrun, run_file_eq, run_event_eq. unfold read_event_step. rewrite He'. reflexivity.
  - unfold elements_ok in Hok. cbn [forallb] in Hok. apply andb_true_iff in Hok.
    destruct Hok as [Hoke Hokt].
    destruct (noise_run n Hn r (evs ++ rest) Hev) as (r1 & E1 & _ & R1).
    destruct (pad_element_run e evs r1 rest g He Hoke E1) as (r2 & E2 & R2).
    rewrite R1, R2. apply IH; assumption.
Qed.

Lemma elements_ok_app a b : elements_ok (a ++ b) = elements_ok a && elements_ok b.
Proof. apply forallb_app. Qed.

Definition mid_file (els : list element) (f : xfile) : Prop :=
  exists mid, f = FileEvents mid /\ pad_elements els mid.

Lemma run_files_padded : forall (l : layout) mids, Forall2 mid_file l mids ->
  forall g, elements_ok (concat l) = true -> run_files mids g = ROk (gathered_of (concat l) g).
Proof.
  induction 1 as [|els f t mids (mid & -> & Hp) _ IH]; intros g Hok; [reflexivity|].
  cbn [concat] in Hok. rewrite elements_ok_app in Hok. apply andb_true_iff in Hok.
  destruct Hok as [Hok1 Hok2]. cbn [run_files concat].
  rewrite (pad_elements_run els mid Hp (reader_from_events mid) g Hok1 eq_refl), gathered_of_app. apply IH, Hok2.
Qed.

Lemma load_mid (l : layout) mids :
  l <> [] -> Forall2 mid_file l mids -> elements_ok (concat l) = true ->
  load mids = match assemble (gathered_of (concat l) gathered_empty) with
              | Some m => Loaded m
              | None => Refused
              end.
Proof.
  intros Hne H Hok. rewrite load_run, (run_files_padded l mids H gathered_empty Hok).
  destruct H; [contradiction|reflexivity].
Qed.

Lemma pad_element_render e : pad_element e (render_element e).
Proof.
  destruct e as [p|f|id cr|id b].
  - constructor.
  - constructor.
  - exact (pe_signal id cr [] [] noise_nil noise_nil).
  - exact (pe_coding id b [] [] [] noise_nil noise_nil noise_nil).
Qed.

Lemma pad_elements_render els : pad_elements els (flat_map render_element els).
Proof.
  induction els as [|e t IH]; [exact (pes_nil [] noise_nil)|].
  exact (pes_cons [] e _ t _ noise_nil (pad_element_render e) IH).
Qed.

Lemma mid_file_render (l : layout) : Forall2 mid_file l (files_of l).
Proof.
  induction l as [|els t IH]; constructor; [|exact IH].
  exists (flat_map render_element els). split; [reflexivity|apply pad_elements_render].
Qed.

Theorem load_rendered (l : layout) :
  l <> [] -> elements_ok (concat l) = true ->
  match denote (concat l) with
  | Some d => exists m, gather_fibex_data (files_of l) = Some m /\ meta_equiv m d
  | None => load (files_of l) = Refused /\ gather_fibex_data (files_of l) = None
  end.
Proof.
  intros Hne Hok. pose proof (assemble_denote (concat l)) as Had.
  unfold gather_fibex_data. rewrite (load_mid l (files_of l) Hne (mid_file_render l) Hok).
  destruct (assemble (gathered_of (concat l) gathered_empty)) as [m|];
    destruct (denote (concat l)) as [d|]; try contradiction.
  - exists m. split; [reflexivity|exact Had].
  - split; reflexivity.
Qed.
