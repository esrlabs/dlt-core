(* Proofs/Prefix.v — C05: every proper prefix of a serialised well-formed message is reported
   Incomplete by dlt_message (any filter, both storage modes; the second half of Roundtrip.stable_message)
   and by dlt_consume_msg, and a hint, when present, is at least 1 and at most the number of missing bytes. *)
From Coq Require Import Lia ZifyBool ZifyN ZifyNat.
From DltV.Model Require Import Bytes Nom Dlt Parse.
From DltV.Spec Require Import WellFormed.
From DltV.Proofs Require Import BytesBasics Fields ParseLemmas Stable Lengths Headers Roundtrip.
Open Scope N_scope.

Lemma proper_prefix_app_r c1 c2' c2 : proper_prefix c2' c2 -> proper_prefix (c1 ++ c2') (c1 ++ c2).
Proof. intros (d & -> & Hd). exists d. split; [now rewrite app_assoc | exact Hd]. Qed.

Theorem message_prefix m f c' :
  wf_message m = true -> proper_prefix c' (message_bytes m) ->
  exists n, dlt_message c' f (has_storage m) = PIncomplete n /\ hint_ok n (len (message_bytes m) - len c').
Proof. intros H. apply (stable_message m f H). Qed.

(* ---------- dlt_consume_msg ---------- *)
Lemma stable_skip_core s :
  wf_storage s = true -> stable skip_core (storage_header_bytes s) tt.
Proof.
  intros H. apply wf_storage_inv in H as (_ & _ & He).
  rewrite storage_header_bytes_eq. unfold skip_core.
  apply (stable_bind (tag [x44; x4c; x54]) _ _ _ _ _ (stable_tag _)). cbv beta.
  apply (stable_bind (tag [x01]) _ _ _ _ _ (stable_tag _)). cbv beta.
  eapply (stable_bind_last (take 12) _ _ _ tt); [|reflexivity]. apply stable_take.
  rewrite !len_app, !len_put_uint, (len_put_zstring _ (wf_id_len _ He)). reflexivity.
Qed.

Lemma dlt_consume_msg_nonempty input :
  input <> [] ->
  dlt_consume_msg input =
  let* (skipped, after_sh) := skip_storage_header input in
  let* (header, _) := dlt_standard_header after_sh in
  let* (_, after_message) := take (overall_length header) after_sh in
  POk (Some (skipped + overall_length header)) after_message.
Proof. intros H. destruct input; [congruence | reflexivity]. Qed.

Theorem consume_prefix m c' :
  wf_message m = true -> has_storage m = true -> c' <> [] -> proper_prefix c' (message_bytes m) ->
  exists n, dlt_consume_msg c' = PIncomplete n /\ hint_ok n (len (message_bytes m) - len c').
Proof.
  intros H Hst Hne Hp. apply wf_message_inv in H as [Hs W].
  rewrite message_bytes_eq in *. unfold has_storage in Hst.
  destruct m as [st h x p]. cbn [m_storage m_header m_ext m_payload] in *.
  destruct st as [s|]; [|discriminate Hst]. cbn [wf_opt] in Hs.
  pose proof (len_storage_header_bytes s Hs) as L16.
  destruct (stable_skip_core s Hs) as [K1 K2].
  destruct (stable_std_header h (wb_std _ _ _ W) (wb_len _ _ _ W)) as [S1 S2].
  pose proof (len_body_bytes h x p W) as LB.
  rewrite (dlt_consume_msg_nonempty c' Hne), skip_storage_header_eq.
  apply proper_prefix_app in Hp as [Hp|(c2 & -> & Hp)].
  - (* inside the storage header *)
    destruct (K2 c' Hp) as (n & Hn & Hh). exists n. rewrite Hn. split; [reflexivity|].
    eapply hint_ok_weaken; [exact Hh|]. rewrite len_app. lia.
  - rewrite K1. cbn [pbind]. rewrite len_app, L16.
    destruct (N.ltb_spec (16 + len c2) (len c2)) as [Hbad|_]; [lia|].
    destruct (N.eqb_spec (16 + len c2 - len c2) 16) as [_|Hbad]; [|lia]. cbn [pbind].
    pose proof (proper_prefix_len _ _ Hp) as Lc.
    unfold body_bytes in Hp. apply proper_prefix_app in Hp as [Hp|(c3 & -> & Hp)].
    + (* inside the standard header *)
      destruct (S2 c2 Hp) as (n & Hn & Hh). exists n. rewrite Hn. split; [reflexivity|].
      eapply hint_ok_weaken; [exact Hh|]. unfold body_bytes. rewrite !len_app. lia.
    + (* behind it: take reports the exact shortfall *)
      rewrite S1. cbn [pbind]. rewrite take_short by lia. cbn [pbind].
      eexists. split; [reflexivity|]. cbn [hint_ok]. rewrite !len_app in *. lia.
Qed.

