(* Proofs/Stable.v — "prefix-stable" parsers: on its own bytes [c] followed by anything the parser
   returns [v] and exactly the continuation; on every proper prefix of [c] it reports Incomplete
   with a hint that is at least 1 and at most the number of missing bytes.  Closed under
   sequencing.  This gives both the round trip of the headers (C01) and C05. *)
From Coq Require Import Lia ZifyBool ZifyN ZifyNat.
From DltV.Model Require Import Bytes Utf8 Nom Parse.
From DltV.Spec Require Import WellFormed.
From DltV.Proofs Require Import BytesBasics Fields Utf8Lemmas ZString ParseLemmas.
Open Scope N_scope.

Definition proper_prefix (c' c : list byte) : Prop := exists d, c = c' ++ d /\ d <> [].
Definition hint_ok (n : option N) (missing : N) : Prop :=
  match n with None => True | Some h => 1 <= h <= missing end.

Definition stable {A} (p : list byte -> pres A) (c : list byte) (v : A) : Prop :=
  (forall r, p (c ++ r) = POk v r) /\
  (forall c', proper_prefix c' c -> exists n, p c' = PIncomplete n /\ hint_ok n (len c - len c')).

Lemma proper_prefix_len c' c : proper_prefix c' c -> len c' < len c.
Proof.
  intros (d & -> & Hd). rewrite len_app. destruct d; [congruence|]. rewrite len_cons. lia.
Qed.
Lemma proper_prefix_firstn (k : nat) (l : list byte) :
  (k < length l)%nat -> proper_prefix (firstn k l) l /\ len (firstn k l) = N.of_nat k.
Proof.
  intros H. split.
  - exists (skipn k l). split; [symmetry; apply firstn_skipn|].
    intros E. apply (f_equal (@length byte)) in E. rewrite skipn_length in E. cbn in E. lia.
  - unfold len. rewrite firstn_length. lia.
Qed.
Lemma proper_prefix_nil c' : ~ proper_prefix c' [].
Proof. intros H. apply proper_prefix_len in H. cbn in H. lia. Qed.

Lemma hint_ok_weaken n a b : hint_ok n a -> a <= b -> hint_ok n b.
Proof. destruct n; cbn; [lia | trivial]. Qed.

Lemma proper_prefix_app c' c1 c2 :
  proper_prefix c' (c1 ++ c2) ->
  proper_prefix c' c1 \/ exists c2', c' = c1 ++ c2' /\ proper_prefix c2' c2.
Proof.
  revert c'; induction c1 as [|a c1 IH]; intros c' (d & H & Hd).
  - right. exists c'. split; [reflexivity | now exists d].
  - destruct c' as [|b c'].
    + left. exists (a :: c1). split; [reflexivity | discriminate].
    + cbn [app] in H. injection H as <- H.
      destruct (IH c' (ex_intro _ d (conj H Hd))) as [(d1 & -> & Hd1)|(c2' & -> & Hp)].
      * left. exists d1. split; [reflexivity | exact Hd1].
      * right. exists c2'. split; [reflexivity | exact Hp].
Qed.

Lemma stable_ret {A} (v : A) : stable (fun i => POk v i) [] v.
Proof. split; [reflexivity | intros c' H; now apply proper_prefix_nil in H]. Qed.

Lemma stable_ext {A} (p q : list byte -> pres A) c v :
  (forall i, p i = q i) -> stable p c v -> stable q c v.
Proof.
  intros E [H1 H2]. split.
  - intros r. now rewrite <- E.
  - intros c' Hp. destruct (H2 c' Hp) as (n & Hn & Hh). exists n. now rewrite <- E.
Qed.

Lemma stable_bind {A B} (p1 : list byte -> pres A) (p2 : A -> list byte -> pres B) c1 c2 v1 v2 :
  stable p1 c1 v1 -> stable (p2 v1) c2 v2 ->
  stable (fun i => pbind (p1 i) p2) (c1 ++ c2) v2.
Proof.
  intros [A1 A2] [B1 B2]. split.
  - intros r. rewrite <- app_assoc, A1. cbn [pbind]. apply B1.
  - intros c' Hp. apply proper_prefix_app in Hp as [Hp|(c2' & -> & Hp)].
    + destruct (A2 c' Hp) as (n & Hn & Hh). exists n. rewrite Hn. split; [reflexivity|].
      eapply hint_ok_weaken; [exact Hh|]. rewrite len_app. lia.
    + rewrite A1. cbn [pbind]. destruct (B2 c2' Hp) as (n & Hn & Hh). exists n. split; [exact Hn|].
      eapply hint_ok_weaken; [exact Hh|]. rewrite !len_app. lia.
Qed.

Lemma stable_pmap {A B} (f : A -> B) (p : list byte -> pres A) c v :
  stable p c v -> stable (fun i => pmap f (p i)) c (f v).
Proof.
  intros [H1 H2]. split.
  - intros r. unfold pmap. now rewrite H1.
  - intros c' Hp. destruct (H2 c' Hp) as (n & Hn & Hh). exists n. unfold pmap. now rewrite Hn.
Qed.

(* a fixed-size field is stable on any [k] bytes *)
Lemma field_stable {A} (p : list byte -> pres A) k f c : field p k f -> len c = k -> stable p c (f c).
Proof.
  intros F H. split.
  - intros r. now apply (field_app p k).
  - intros c' Hp. apply proper_prefix_len in Hp.
    destruct (field_hint _ _ _ c' F) as (h & E & Hh); [lia|]. exists (Some h). split; [exact E | cbn; lia].
Qed.

Lemma stable_uint e k v : v < 256 ^ N.of_nat k -> stable (uint e k) (put_uint e k v) v.
Proof.
  intros Hv. pose proof (field_stable _ _ _ _ (field_uint e k) (len_put_uint e k v)) as S.
  now rewrite get_put_uint in S.
Qed.

Lemma stable_u8 v : v < 256 -> stable u8 [n2b v] v.
Proof. intros H. apply (stable_uint BE 1 v). exact H. Qed.
Lemma stable_u16 e v : v <= 65535 -> stable (uint e 2) (put_uint e 2 v) v.
Proof. intros H. apply stable_uint. change (256 ^ N.of_nat 2) with 65536. lia. Qed.

Lemma stable_sint e k z : (0 < k)%nat -> in_signed (8 * N.of_nat k) z = true ->
  stable (sint e k) (put_sint e k z) z.
Proof.
  intros Hk Hz. pose proof (field_stable _ _ _ _ (field_sint e k) (len_put_sint e k z)) as S.
  now rewrite get_put_sint in S.
Qed.

Lemma stable_take n c : len c = n -> stable (take n) c c.
Proof.
  intros H. exact (field_stable _ _ _ c (field_take n) H).
Qed.

Lemma compare_tag_prefix t c' : proper_prefix c' t -> compare_tag t c' = None.
Proof.
  revert c'; induction t as [|a t IH]; intros c' Hp; [now apply proper_prefix_nil in Hp|].
  destruct c' as [|b c']; [reflexivity|]. destruct Hp as (d & H & Hd).
  cbn [app] in H. injection H as -> H. cbn [compare_tag]. rewrite byte_eqb_refl.
  apply IH. now exists d.
Qed.
Lemma stable_tag t : stable (tag t) t t.
Proof.
  split.
  - intros r. apply tag_app.
  - intros c' Hp. pose proof (proper_prefix_len _ _ Hp) as L.
    unfold tag. rewrite (compare_tag_prefix _ _ Hp).
    exists (Some (len t - len c')). split; [|cbn; lia].
    now rewrite needed_new_pos by lia.
Qed.

Lemma stable_zstring size s :
  no_nul s = true -> valid_utf8 s = true -> len s <= size ->
  stable (zstring size) (s ++ repeat x00 (N.to_nat (size - len s))) s.
Proof.
  intros Hn Hv Hl.
  pose proof (field_stable _ _ _ (s ++ repeat x00 (N.to_nat (size - len s))) (field_zstring size)) as S.
  cbv beta in S. rewrite (upto_nul_app_pad s _ Hn), (utf8_prefix_valid s Hv) in S.
  apply S. rewrite len_app, len_repeat. lia.
Qed.

Lemma stable_opt {A} (b : bool) (p : list byte -> pres A) c v :
  (b = true -> stable p c v) ->
  stable (fun i => if b then pmap Some (p i) else POk None i)
         (if b then c else []) (if b then Some v else None).
Proof.
  intros H. destruct b.
  - apply (stable_pmap Some p), H. reflexivity.
  - apply stable_ret.
Qed.

Lemma stable_option {A} (p : list byte -> pres A) (w : A -> list byte) (o : option A) :
  (forall a, o = Some a -> stable p (w a) a) ->
  stable (fun i => if is_some o then pmap Some (p i) else POk None i)
         (match o with Some a => w a | None => [] end) o.
Proof.
  intros H. destruct o as [a|]; [|apply stable_ret].
  apply (stable_pmap Some p), H. reflexivity.
Qed.

(* the last parser of a sequence, its result repackaged by [p2] *)
Lemma stable_bind_last {A B} (p1 : list byte -> pres A) (p2 : A -> list byte -> pres B) c1 v1 v2 :
  stable p1 c1 v1 -> (forall i, p2 v1 i = POk v2 i) -> stable (fun i => pbind (p1 i) p2) c1 v2.
Proof.
  intros H1 H2. rewrite <- (app_nil_r c1). apply (stable_bind p1 p2 c1 [] v1 v2 H1).
  apply (stable_ext (fun i => POk v2 i)); [intros i; symmetry; apply H2 | apply stable_ret].
Qed.
