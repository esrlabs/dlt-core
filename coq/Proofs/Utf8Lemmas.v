(* Proofs/Utf8Lemmas.v — the greedy scan [valid_up_to] of Model/Utf8.v against an independent,
   declarative definition of well-formed UTF-8 (Unicode 15, table 3-7, one constructor per row).
   Main results: [utf8_prefix l] is a prefix of [l], is well-formed, and no well-formed prefix
   of [l] is longer; [valid_utf8 l = true <-> wf_utf8 l]. *)
From Coq Require Import Lia ZifyBool ZifyN ZifyNat.
From DltV.Model Require Import Bytes Utf8.
From DltV.Proofs Require Import BytesBasics.
Open Scope N_scope.

(* ---------- declarative well-formedness ---------- *)

Definition rng (lo hi : N) (b : byte) : Prop := lo <= b2n b /\ b2n b <= hi.

(* one well-formed scalar-value encoding: the nine rows of table 3-7 *)
Inductive wf_seq : list byte -> Prop :=
| ws_00_7F a       : rng 0 127 a -> wf_seq [a]
| ws_C2_DF a b     : rng 194 223 a -> rng 128 191 b -> wf_seq [a; b]
| ws_E0 a b c      : rng 224 224 a -> rng 160 191 b -> rng 128 191 c -> wf_seq [a; b; c]
| ws_E1_EC a b c   : rng 225 236 a -> rng 128 191 b -> rng 128 191 c -> wf_seq [a; b; c]
| ws_ED a b c      : rng 237 237 a -> rng 128 159 b -> rng 128 191 c -> wf_seq [a; b; c]
| ws_EE_EF a b c   : rng 238 239 a -> rng 128 191 b -> rng 128 191 c -> wf_seq [a; b; c]
| ws_F0 a b c d    : rng 240 240 a -> rng 144 191 b -> rng 128 191 c -> rng 128 191 d -> wf_seq [a; b; c; d]
| ws_F1_F3 a b c d : rng 241 243 a -> rng 128 191 b -> rng 128 191 c -> rng 128 191 d -> wf_seq [a; b; c; d]
| ws_F4 a b c d    : rng 244 244 a -> rng 128 143 b -> rng 128 191 c -> rng 128 191 d -> wf_seq [a; b; c; d].

Inductive wf_utf8 : list byte -> Prop :=
| wf_nil : wf_utf8 []
| wf_more s l : wf_seq s -> wf_utf8 l -> wf_utf8 (s ++ l).

(* ---------- one step of the scan ---------- *)

Ltac utf8_unf :=
  unfold rng, lead2, lead3, lead4, second3, second4, is_cont, in_range in *.

Lemma scan_1 a r : (b2n a <? 128) = true -> valid_up_to (a :: r) = S (valid_up_to r).
Proof. intros H. cbn [valid_up_to]. now rewrite H. Qed.
Lemma scan_2 a b r :
  (b2n a <? 128) = false -> lead2 (b2n a) = true -> is_cont (b2n b) = true ->
  valid_up_to (a :: b :: r) = S (S (valid_up_to r)).
Proof. intros H1 H2 H3. cbn [valid_up_to]. now rewrite H1, H2, H3. Qed.
Lemma scan_3 a b c r :
  (b2n a <? 128) = false -> lead2 (b2n a) = false -> lead3 (b2n a) = true ->
  second3 (b2n a) (b2n b) = true -> is_cont (b2n c) = true ->
  valid_up_to (a :: b :: c :: r) = S (S (S (valid_up_to r))).
Proof. intros H1 H2 H3 H4 H5. cbn [valid_up_to]. now rewrite H1, H2, H3, H4, H5. Qed.
Lemma scan_4 a b c d r :
  (b2n a <? 128) = false -> lead2 (b2n a) = false -> lead3 (b2n a) = false -> lead4 (b2n a) = true ->
  second4 (b2n a) (b2n b) = true -> is_cont (b2n c) = true -> is_cont (b2n d) = true ->
  valid_up_to (a :: b :: c :: d :: r) = S (S (S (S (valid_up_to r)))).
Proof. intros H1 H2 H3 H4 H5 H6 H7. cbn [valid_up_to]. now rewrite H1, H2, H3, H4, H5, H6, H7. Qed.

(* every test of a row is a comparison of range bounds *)
Lemma valid_up_to_seq s r : wf_seq s -> valid_up_to (s ++ r) = (length s + valid_up_to r)%nat.
Proof.
  intros W. destruct W; cbn [app length Nat.add];
    [apply scan_1 | apply scan_2 | apply scan_3 .. | apply scan_4 | apply scan_4 | apply scan_4].
  all: utf8_unf; try lia.
  (* left: the second byte, whose range depends on the first *)
  1-4: destruct (b2n a =? 224) eqn:?; [|destruct (b2n a =? 237) eqn:?]; lia.
  all: destruct (b2n a =? 240) eqn:?; [|destruct (b2n a =? 244) eqn:?]; lia.
Qed.

Lemma valid_up_to_cases l : valid_up_to l = O \/ exists s r, l = s ++ r /\ wf_seq s.
Proof.
  destruct l as [|b0 r0]; [now left|].
  cbn [valid_up_to]. cbv zeta.
  destruct (b2n b0 <? 128) eqn:E0.
  { right. exists [b0], r0. split; [reflexivity|]. apply ws_00_7F. unfold rng. lia. }
  destruct (lead2 (b2n b0)) eqn:E2.
  { destruct r0 as [|b1 r1]; [now left|].
    destruct (is_cont (b2n b1)) eqn:C1; [|now left].
    right. exists [b0; b1], r1. split; [reflexivity|]. apply ws_C2_DF; utf8_unf; lia. }
  destruct (lead3 (b2n b0)) eqn:E3.
  { destruct r0 as [|b1 [|b2 r2]]; [now left|now left|].
    destruct (second3 (b2n b0) (b2n b1) && is_cont (b2n b2)) eqn:C; [|now left].
    right. exists [b0; b1; b2], r2. split; [reflexivity|]. utf8_unf.
    destruct (b2n b0 =? 224) eqn:Q1; [apply ws_E0; unfold rng; lia|].
    destruct (b2n b0 =? 237) eqn:Q2; [apply ws_ED; unfold rng; lia|].
    destruct (b2n b0 <? 237) eqn:Q3; [apply ws_E1_EC|apply ws_EE_EF]; unfold rng; lia. }
  destruct (lead4 (b2n b0)) eqn:E4; [|now left].
  destruct r0 as [|b1 [|b2 [|b3 r3]]]; [now left|now left|now left|].
  destruct (second4 (b2n b0) (b2n b1) && is_cont (b2n b2) && is_cont (b2n b3)) eqn:C; [|now left].
  right. exists [b0; b1; b2; b3], r3. split; [reflexivity|]. utf8_unf.
  destruct (b2n b0 =? 240) eqn:Q1; [apply ws_F0; unfold rng; lia|].
  destruct (b2n b0 =? 244) eqn:Q2; [apply ws_F4; unfold rng; lia|].
  apply ws_F1_F3; unfold rng; lia.
Qed.

Lemma wf_seq_length s : wf_seq s -> (1 <= length s <= 4)%nat.
Proof. intros W. destruct W; cbn [length]; lia. Qed.

Lemma wf_seq_not_nil : ~ wf_seq [].
Proof. intros W. apply wf_seq_length in W. cbn [length] in W. lia. Qed.

Lemma firstn_length_app {A} (s r : list A) : firstn (length s) (s ++ r) = s.
Proof. now apply firstn_app_exact. Qed.

Lemma utf8_scan_ind (P : list byte -> Prop) :
  (forall l, valid_up_to l = O -> P l) ->
  (forall s r, wf_seq s -> P r -> P (s ++ r)) ->
  forall l, P l.
Proof.
  intros Hstuck Hseq l.
  remember (length l) as n eqn:Hn. revert l Hn.
  induction n as [n IH] using lt_wf_ind. intros l Hn.
  destruct (valid_up_to_cases l) as [E|(s & r & -> & W)]; [apply Hstuck, E|].
  apply Hseq; [exact W|].
  apply (IH (length r)); [|reflexivity].
  pose proof (wf_seq_length s W) as Hl. rewrite Hn, app_length. lia.
Qed.

(* ---------- the scan on a well-formed prefix ---------- *)

Lemma valid_up_to_wf_app p r : wf_utf8 p -> valid_up_to (p ++ r) = (length p + valid_up_to r)%nat.
Proof.
  intros W. induction W as [|s l Ws Wl IH]; [reflexivity|].
  rewrite <- app_assoc, (valid_up_to_seq _ _ Ws), IH, app_length. lia.
Qed.

Lemma valid_up_to_wf p : wf_utf8 p -> valid_up_to p = length p.
Proof.
  intros W. pose proof (valid_up_to_wf_app p [] W) as H.
  rewrite app_nil_r in H. cbn [valid_up_to] in H. lia.
Qed.

Lemma wf_utf8_app a b : wf_utf8 a -> wf_utf8 b -> wf_utf8 (a ++ b).
Proof.
  intros Wa Wb. induction Wa as [|s l Ws Wl IH]; [exact Wb|].
  rewrite <- app_assoc. apply wf_more; assumption.
Qed.

Lemma wf_utf8_seq s : wf_seq s -> wf_utf8 s.
Proof. intros W. rewrite <- (app_nil_r s). apply wf_more; [exact W|apply wf_nil]. Qed.

(* ---------- valid_up_to / utf8_prefix ---------- *)

Lemma valid_up_to_le l : (valid_up_to l <= length l)%nat.
Proof.
  induction l as [l Hs|s r W IH] using utf8_scan_ind.
  - rewrite Hs. lia.
  - rewrite (valid_up_to_seq s r W), app_length. lia.
Qed.

Lemma utf8_prefix_length l : length (utf8_prefix l) = valid_up_to l.
Proof.
  unfold utf8_prefix. rewrite firstn_length. pose proof (valid_up_to_le l). lia.
Qed.

Lemma utf8_prefix_is_prefix l : exists r, l = utf8_prefix l ++ r.
Proof.
  exists (skipn (valid_up_to l) l). unfold utf8_prefix. symmetry. apply firstn_skipn.
Qed.

Lemma utf8_prefix_stuck l : valid_up_to l = O -> utf8_prefix l = [].
Proof. intros H. unfold utf8_prefix. now rewrite H. Qed.

Lemma utf8_prefix_wf_app p r : wf_utf8 p -> utf8_prefix (p ++ r) = p ++ utf8_prefix r.
Proof.
  intros W. unfold utf8_prefix. rewrite (valid_up_to_wf_app p r W). apply firstn_app_2.
Qed.

Lemma utf8_prefix_wf l : wf_utf8 (utf8_prefix l).
Proof.
  induction l as [l Hs|s r W IH] using utf8_scan_ind.
  - rewrite (utf8_prefix_stuck l Hs). apply wf_nil.
  - rewrite (utf8_prefix_wf_app s r (wf_utf8_seq s W)). apply wf_more; assumption.
Qed.

Lemma utf8_prefix_maximal l p r :
  l = p ++ r -> wf_utf8 p -> (length p <= length (utf8_prefix l))%nat.
Proof.
  intros -> W. rewrite utf8_prefix_length, (valid_up_to_wf_app p r W). lia.
Qed.

Lemma utf8_prefix_greatest l p r :
  l = p ++ r -> wf_utf8 p -> exists q, utf8_prefix l = p ++ q.
Proof.
  intros -> W. exists (utf8_prefix r). apply utf8_prefix_wf_app, W.
Qed.

(* ---------- valid_utf8 ---------- *)

Lemma valid_utf8_iff l : valid_utf8 l = true <-> wf_utf8 l.
Proof.
  unfold valid_utf8. rewrite Nat.eqb_eq. split.
  - intros H. pose proof (utf8_prefix_wf l) as W.
    unfold utf8_prefix in W. rewrite H, firstn_all in W. exact W.
  - apply valid_up_to_wf.
Qed.

Lemma utf8_prefix_valid l : valid_utf8 l = true -> utf8_prefix l = l.
Proof.
  unfold valid_utf8, utf8_prefix. rewrite Nat.eqb_eq. intros ->. apply firstn_all.
Qed.

Lemma valid_utf8_prefix l : valid_utf8 (utf8_prefix l) = true.
Proof. apply valid_utf8_iff, utf8_prefix_wf. Qed.

Lemma utf8_prefix_idem l : utf8_prefix (utf8_prefix l) = utf8_prefix l.
Proof. apply utf8_prefix_valid, valid_utf8_prefix. Qed.

Lemma utf8_prefix_fix_iff l : utf8_prefix l = l <-> valid_utf8 l = true.
Proof.
  split; [|apply utf8_prefix_valid].
  intros H. rewrite <- H. apply valid_utf8_prefix.
Qed.

Lemma valid_utf8_nil : valid_utf8 [] = true.
Proof. reflexivity. Qed.

Lemma utf8_prefix_nil : utf8_prefix [] = [].
Proof. reflexivity. Qed.

Lemma valid_utf8_app a b : valid_utf8 a = true -> valid_utf8 b = true -> valid_utf8 (a ++ b) = true.
Proof. rewrite !valid_utf8_iff. apply wf_utf8_app. Qed.

Lemma valid_utf8_app_iff a b :
  valid_utf8 a = true -> (valid_utf8 (a ++ b) = true <-> valid_utf8 b = true).
Proof.
  intros Ha. apply valid_utf8_iff in Ha. unfold valid_utf8.
  rewrite (valid_up_to_wf_app a b Ha), app_length, !Nat.eqb_eq. lia.
Qed.

Lemma valid_utf8_app_inv_r a b :
  valid_utf8 a = true -> valid_utf8 (a ++ b) = true -> valid_utf8 b = true.
Proof. intros Ha H. apply (valid_utf8_app_iff a b Ha). exact H. Qed.

Lemma utf8_prefix_app_valid a b :
  valid_utf8 a = true -> utf8_prefix (a ++ b) = a ++ utf8_prefix b.
Proof. intros Ha. apply utf8_prefix_wf_app, valid_utf8_iff, Ha. Qed.

Lemma wf_utf8_ascii l : Forall (fun b => b2n b < 128) l -> wf_utf8 l.
Proof.
  intros H. induction H as [|b l Hb Hl IH]; [apply wf_nil|].
  change (b :: l) with ([b] ++ l). apply wf_more; [|exact IH].
  apply ws_00_7F. unfold rng. lia.
Qed.

Lemma valid_utf8_ascii l : Forall (fun b => b2n b < 128) l -> valid_utf8 l = true.
Proof. intros H. apply valid_utf8_iff, wf_utf8_ascii, H. Qed.

Lemma valid_utf8_cons_ascii b l :
  b2n b < 128 -> (valid_utf8 (b :: l) = true <-> valid_utf8 l = true).
Proof.
  intros Hb. change (b :: l) with ([b] ++ l). apply valid_utf8_app_iff.
  apply valid_utf8_ascii. constructor; [exact Hb|constructor].
Qed.

(* ---------- no_nul ---------- *)

Lemma no_nul_app a b : no_nul (a ++ b) = no_nul a && no_nul b.
Proof. unfold no_nul. apply forallb_app. Qed.

Lemma no_nul_cons b l : no_nul (b :: l) = negb (is_nul b) && no_nul l.
Proof. reflexivity. Qed.

Lemma no_nul_firstn k l : no_nul l = true -> no_nul (firstn k l) = true.
Proof.
  intros H. rewrite <- (firstn_skipn k l), no_nul_app in H.
  apply andb_true_iff in H. apply H.
Qed.

Lemma no_nul_skipn k l : no_nul l = true -> no_nul (skipn k l) = true.
Proof.
  intros H. rewrite <- (firstn_skipn k l), no_nul_app in H.
  apply andb_true_iff in H. apply H.
Qed.

Lemma utf8_prefix_no_nul l : no_nul l = true -> no_nul (utf8_prefix l) = true.
Proof. apply no_nul_firstn. Qed.

Lemma utf8_prefix_len_le l : len (utf8_prefix l) <= len l.
Proof. unfold utf8_prefix. apply len_firstn_le_len. Qed.
