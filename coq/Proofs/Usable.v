(* Proofs/Usable.v — C03, second half: what the slice parsers return can be used.  Every text of a parsed
   argument is confined to the bytes that argument consumed, the arguments of a message to its payload slice
   of at most 65521 bytes; hence no `len as u16 + 1` of the serialiser and no u16 header length sum
   overflows, Argument::len stays far below 2^32, and Argument::valid holds. *)
From Coq Require Import Lia ZifyBool ZifyN ZifyNat.
From DltV.Model Require Import Bytes Utf8 Nom Dlt Parse.
From DltV.Proofs Require Import ParseLemmas Consumption Lengths ParseInv.
Open Scope N_scope.

(* ---------- the texts of an argument ---------- *)
Definition opt_texts (o : option (list byte)) : list (list byte) :=
  match o with Some s => [s] | None => [] end.
Definition value_texts (v : value) : list (list byte) :=
  match v with VString s => [s] | VRaw bs => [bs] | _ => [] end.
Definition arg_texts (a : argument) : list (list byte) :=
  opt_texts (a_name a) ++ opt_texts (a_unit a) ++ value_texts (a_value a).

(* 6 = the type info and one u16 size, which precede every text *)
Definition texts_within (a : argument) (n : N) : Prop :=
  forall s, In s (arg_texts a) -> len s + 6 <= n.

Definition args_of (m : message) : list argument :=
  match m_payload m with PVerbose args => args | _ => [] end.
Definition slices_of (m : message) : list (list byte) :=
  match m_payload m with PNetworkTrace sl => sl | _ => [] end.

(* ---------- one argument ---------- *)
Lemma floor_within a n : arg_floor a <= n -> texts_within a n.
Proof.
  unfold arg_floor, texts_within, arg_texts. intros H s Hs.
  destruct (a_name a), (a_unit a), (a_value a); cbn [opt_texts value_texts opt_floor val_floor app In] in *;
    intuition (subst; lia).
Qed.

Lemma val_floor_texts v : val_floor v = 0 -> value_texts v = [].
Proof. destruct v; cbn [val_floor value_texts]; intros H; (reflexivity || lia). Qed.

Lemma raw_slices_in args s :
  In s (raw_slices args) -> exists a, In a args /\ In s (arg_texts a).
Proof.
  unfold raw_slices. rewrite in_flat_map. intros (a & Ha & Hs). exists a. split; [exact Ha|].
  unfold arg_texts. apply in_or_app. right. apply in_or_app. right.
  destruct (a_value a); try (now destruct Hs). exact Hs.
Qed.

(* ---------- from length bounds to "the serialiser does not overflow" ---------- *)
Lemma arg_bytes_ok a : (forall s, In s (arg_texts a) -> len s < 65535) -> arg_bytes_overflows a = false.
Proof.
  destruct a as [t name unit fp v]. unfold arg_texts, arg_bytes_overflows.
  cbn [a_ti a_name a_unit a_fp a_value]. intros H.
  assert (Bn : opt_overflows name = false).
  { destruct name as [s|]; [|reflexivity]. apply len_plus1_ok, H. now left. }
  assert (Bu : opt_overflows unit = false).
  { destruct unit as [s|]; [|reflexivity]. apply len_plus1_ok, H, in_or_app. right. now left. }
  assert (Hv : forall s, v = VString s -> len_plus1_overflows s = false).
  { intros s ->. apply len_plus1_ok, H. do 2 (apply in_or_app; right). now left. }
  clear H.
  destruct (ti_kind_of t); try (destruct (ti_var_info t); [now rewrite Bn, Bu | reflexivity]).
  - exact Bn.
  - destruct (ti_var_info t), name as [nm|], v; try reflexivity.
    + cbn [opt_overflows] in Bn. now rewrite Bn, (Hv s eq_refl).
    + now apply Hv.
  - destruct (ti_var_info t), name as [nm|], v; try reflexivity. exact Bn.
Qed.

(* Argument::len is usize arithmetic; for a parsed argument it is tiny compared with 2^32,
   so it cannot overflow on a 32-bit target either *)
Lemma arg_len_small a L : (forall s, In s (arg_texts a) -> len s <= L) -> arg_len a <= 3 * L + 40.
Proof.
  destruct a as [t name unit fp v]. unfold arg_texts, arg_len, name_space, fixed_point_capacity.
  cbn [a_ti a_name a_unit a_fp a_value]. intros H.
  assert (Bn : match name with Some n => 2 + len n + 1 | None => 0 end <= L + 3).
  { destruct name as [s|]; [|lia]. pose proof (H s (or_introl eq_refl)). lia. }
  assert (Bu : match unit with Some n => 2 + len n + 1 | None => 0 end <= L + 3).
  { destruct unit as [s|]; [|lia]. specialize (H s). rewrite in_app_iff in H. specialize (H (or_intror (or_introl eq_refl))). lia. }
  assert (Hv : forall s, value_texts v = [s] -> len s <= L).
  { intros s Hs. apply H. do 2 (apply in_or_app; right). rewrite Hs. now left. }
  clear H.
  assert (Bf : match fp with Some f => 4 + fp_value_width (fp_offset f) | None => 0 end <= 12).
  { destruct fp as [f|]; [|lia]. destruct (fp_offset f); cbn [fp_value_width]; lia. }
  destruct (ti_kind_of t) as [|l|w|l|w|w| |].
  - lia.
  - destruct l; cbn [type_length_bytes]; lia.
  - destruct w; cbn [float_width_bytes]; lia.
  - destruct l; cbn [type_length_bytes]; lia.
  - destruct w; cbn [float_width_bytes]; lia.
  - destruct w; cbn [float_width_bytes]; lia.
  - destruct v; try lia. specialize (Hv s eq_refl). lia.
  - destruct v; try lia. specialize (Hv bs eq_refl). lia.
Qed.

(* ---------- the message ---------- *)
(* Arguments and network-trace slices exist only in verbose messages, which have an extended header: 4 + 10
   header bytes at least, so at most 65521 payload bytes, of which a text leaves 6 to its type info and
   size field *)
Theorem dlt_message_item_bounds bs f sh m rest :
  dlt_message bs f sh = POk (Item m) rest ->
  overall_length_overflows (m_header m) = false /\
  h_payload_length (m_header m) <= 65531 /\
  (forall a, In a (args_of m) ->
     arg_valid a = true /\ (forall s, In s (arg_texts a) -> len s <= 65515) /\ arg_len a < 2 ^ 18) /\
  (forall s, In s (slices_of m) -> len s <= 65515).
Proof.
  intros H. apply dlt_message_item_inv in H as (_ & _ & _ & He & _ & Hraw & ah & Ep).
  apply dlt_payload_inv in Ep as [_ Hp].
  split; [unfold overall_length_overflows; apply N.leb_gt; lia|]. unfold overall_length_raw in Hraw.
  assert (A : forall args, verbose_of (m_ext m) = true ->
                args_facts (N.to_nat (noar_of (m_ext m))) (h_payload_length (m_header m)) args ->
                forall a, In a args -> arg_valid a = true /\ forall s, In s (arg_texts a) -> len s <= 65515).
  { intros args Hv (_ & Fk & V & _) a Hin. destruct (m_ext m) as [x|]; [|discriminate Hv].
    rewrite He in Hraw. cbn [WellFormed.is_some] in Hraw.
    pose proof (args_floor_in a args Hin) as Fa.
    split; [exact (V a Hin)|]. intros s Hs.
    assert (W : texts_within a 65521) by (apply floor_within; lia).
    specialize (W s Hs). lia. }
  split; [lia|].
  unfold args_of, slices_of. destruct (m_payload m) as [args|id bs'|ct bs'|sl].
  - destruct Hp as (Hv & _ & Hc). split; [|intros s []]. intros a Hin.
    destruct (A _ Hv Hc a Hin) as [V B]. split; [exact V|]. split; [exact B|].
    pose proof (arg_len_small a 65515 B) as L. change (2 ^ 18) with 262144. lia.
  - split; intros ? [].
  - split; intros ? [].
  - destruct Hp as (Hv & _ & args & Hc & ->). split; [intros a []|]. intros s Hs.
    apply raw_slices_in in Hs as (a & Ha & Hs). exact (proj2 (A _ Hv Hc a Ha) s Hs).
Qed.

(* ---------- construct_arguments (non-verbose arguments built from FIBEX type infos) ----------
   The arguments have neither name nor unit; a string/raw value is a slice of [data] whose length
   came from a u16.  They always pass Argument::valid.  Their serialisation cannot overflow when
   [data] has at most 65536 bytes — which holds for the payload of any parsed message — but the
   function itself accepts longer data: see [c03_construct_arguments_long_data_overflows] (Properties/C03.v). *)
Lemma slice_text_bound e data off :
  off + 2 + get_uint e (slice data off (off + 2)) <= len data ->
  let s := slice data (off + 2) (off + 2 + get_uint e (slice data off (off + 2))) in
  len s + 2 <= len data /\ len s <= 65535.
Proof.
  intros H3. pose proof (u16_field_bound e data off) as HL.
  destruct (len_slice data (off + 2) (off + 2 + get_uint e (slice data off (off + 2)))) as [B1 B2].
  cbv zeta. lia.
Qed.

Lemma pres_value_inv x v : pres_value x = Some v -> exists r, x = POk v r.
Proof. destruct x; intros H; try discriminate H. injection H as <-. eauto. Qed.

Lemma construct_one_numeric e t data off v fp off' fw wv :
  numeric_of (ti_kind_of t) = Some (fw, wv) -> construct_one e t data off = Some (v, fp, off') ->
  exists x r, numeric_parser e (ti_kind_of t) x = POk v r.
Proof.
  unfold construct_one. destruct (ti_kind_of t); intros N H; try discriminate N; cbn [numeric_parser];
    (destruct (len data <? _); [discriminate H|]);
    try (destruct (dlt_fixed_point _ _ _) as [fp0 vo| | | |]; try discriminate H);
    (destruct (pres_value _) as [v0|] eqn:E; [|discriminate H]); injection H as <- _ _;
    apply pres_value_inv in E as [r E]; eauto.
Qed.

Lemma construct_one_inv e t data off v fp off' :
  construct_one e t data off = Some (v, fp, off') ->
  arg_valid (mkArg t None None fp v) = true /\
  forall s, In s (value_texts v) -> len s + 2 <= len data /\ len s <= 65535.
Proof.
  intros H. destruct (numeric_of (ti_kind_of t)) as [[fw wv]|] eqn:N.
  - destruct (construct_one_numeric _ _ _ _ _ _ _ _ _ N H) as (x & r & E).
    apply (numeric_parser_inv _ _ _ _ _ _ _ N) in E as (_ & W & F).
    split; [exact (numeric_valid (mkArg t None None fp v) fw wv N W)|].
    rewrite (val_floor_texts _ F). intros s [].
  - unfold construct_one in H. unfold arg_valid. cbn [a_ti a_value].
    destruct (ti_kind_of t); try discriminate N.
    + destruct (len data <? off + 1); [discriminate|]. injection H as <- _ _.
      split; [reflexivity | intros s []].
    + destruct (len data <? off + 2); [discriminate|].
      destruct (N.ltb_spec (len data) (off + 2 + get_uint e (slice data off (off + 2)))) as [|H3]; [discriminate|].
      destruct (valid_utf8 _); [|discriminate]. injection H as <- _ _.
      split; [reflexivity|]. intros s [<-|[]]. exact (slice_text_bound e data off H3).
    + destruct (len data <? off + 2); [discriminate|].
      destruct (N.ltb_spec (len data) (off + 2 + get_uint e (slice data off (off + 2)))) as [|H3]; [discriminate|].
      injection H as <- _ _.
      split; [reflexivity|]. intros s [<-|[]]. exact (slice_text_bound e data off H3).
Qed.

Lemma construct_from_inv e tys data off args :
  construct_from e tys data off = Some args ->
  forall a, In a args ->
    arg_valid a = true /\ forall s, In s (arg_texts a) -> len s + 2 <= len data /\ len s <= 65535.
Proof.
  revert off args. induction tys as [|t tys IH]; intros off args H; cbn [construct_from] in H.
  - injection H as <-. intros a [].
  - destruct (construct_one e t data off) as [[[v fp] off']|] eqn:E1; [|discriminate].
    destruct (construct_from e tys data off') as [l|] eqn:E2; [|discriminate].
    injection H as <-. intros a [<-|Hin]; [|exact (IH _ _ E2 a Hin)].
    apply construct_one_inv in E1 as [V B]. split; [exact V|].
    unfold arg_texts. cbn [a_name a_unit a_value opt_texts app]. exact B.
Qed.
