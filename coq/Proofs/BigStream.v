(* Proofs/BigStream.v — the shortcut of the differential run for streams longer than 10 MiB (Model/Run.v, op 43
   READ_BIG) is sound: on [Run.big_stream sh nrec l tail] the specification [ReaderSpec.spec_run] yields what
   [Run.big_spec_run] computes from ONE record and the tail. *)
From Coq Require Import Lia ZifyBool ZifyN ZifyNat.
From DltV.Model Require Import Bytes Parse Reader.
From DltV.Model Require Run.
From DltV.Spec Require Import ReaderSpec.
From DltV.Proofs Require Import BytesBasics Fields ReaderProofs.
From DltV.Proofs Require ParseLemmas.
Open Scope N_scope.

(* ---------- the records of the big stream ---------- *)

Definition big_sh : list byte :=
  [n2b 0x44; n2b 0x4c; n2b 0x54; n2b 0x01] ++ repeat x00 12.

Lemma big_record_eq : forall sh l,
  Run.big_record sh l
  = (if sh then big_sh else @nil byte)
    ++ [n2b 0x20; x00; n2b (l / 256); n2b (l mod 256)] ++ repeat x00 (N.to_nat (l - 4)).
Proof. reflexivity. Qed.

Lemma len_big_sh : forall sh : bool, len (if sh then big_sh else @nil byte) = storage_len sh.
Proof. intros [|]; reflexivity. Qed.

Lemma len_big_record : forall sh l, 4 <= l ->
  len (Run.big_record sh l) = storage_len sh + l.
Proof.
  intros sh l Hl. rewrite big_record_eq.
  rewrite !len_app, len_big_sh, len_repeat.
  replace (len [n2b 32; x00; n2b (l / 256); n2b (l mod 256)]) with 4 by reflexivity.
  lia.
Qed.

Lemma declared_len_big_record : forall sh l rest, l <= 65535 ->
  declared_len sh (Run.big_record sh l ++ rest) = l.
Proof.
  intros sh l rest Hl. rewrite big_record_eq, <- !app_assoc. cbn [app].
  rewrite declared_len_at by apply len_big_sh.
  rewrite (b2n_n2b (l mod 256)), N.mod_mod, <- b2n_n2b by lia. apply be16. lia.
Qed.

Lemma spec_cut_big_record : forall sh l rest, 4 <= l -> l <= 65535 ->
  spec_cut sh (Run.big_record sh l ++ rest) = CPiece (len (Run.big_record sh l)).
Proof.
  intros sh l rest Hlo Hhi. apply (spec_cut_piece_intro sh _ rest l).
  - apply len_big_record, Hlo.
  - apply declared_len_big_record, Hhi.
  - exact Hlo.
Qed.

Lemma spec_outcome_no_panic : forall bs f sh, spec_outcome (dlt_message bs f sh) <> OPanic.
Proof.
  intros bs f sh. pose proof (ParseLemmas.dlt_message_no_panic bs f sh).
  destruct (dlt_message bs f sh); [discriminate..|contradiction].
Qed.

Lemma spec_run_big_records : forall sh l tail f k, 4 <= l -> l <= 65535 ->
  spec_run (concat (repeat (Run.big_record sh l) k) ++ tail) f sh
  = repeat (spec_outcome (dlt_message (Run.big_record sh l) f sh)) k ++ spec_run tail f sh.
Proof.
  intros sh l tail f k Hlo Hhi. induction k as [|k IH]; [reflexivity|].
  cbn [repeat concat app]. rewrite <- app_assoc, spec_run_step, spec_cut_big_record, firstn_len_app, skipn_len_app, IH by assumption.
  pose proof (spec_outcome_no_panic (Run.big_record sh l) f sh).
  destruct (spec_outcome _); [reflexivity..|contradiction].
Qed.

Theorem big_stream_sound : forall sh nrec l tail f,
  4 <= l -> l <= 65535 ->
  spec_run (Run.big_stream sh nrec l tail) f sh = Run.big_spec_run sh nrec l tail f.
Proof.
  intros sh nrec l tail f Hlo Hhi. unfold Run.big_spec_run, Run.big_stream.
  rewrite spec_run_big_records by assumption.
  destruct (nrec =? 0) eqn:E0.
  - replace (N.to_nat nrec) with 0%nat by lia. reflexivity.
  - pose proof (spec_outcome_no_panic (Run.big_record sh l) f sh).
    destruct (spec_outcome _); [reflexivity..|contradiction].
Qed.

Theorem big_stream2_sound : forall sh l1 nrec l tail f,
  4 <= l1 -> l1 <= 65535 -> 4 <= l -> l <= 65535 ->
  spec_run (Run.big_stream sh 1 l1 (Run.big_stream sh nrec l tail)) f sh
  = Run.big_spec_run2 sh l1 nrec l tail f.
Proof.
  intros sh l1 nrec l tail f H1 H2 H3 H4.
  rewrite (big_stream_sound sh 1 l1 _ f H1 H2).
  destruct l1 as [|p]; [exfalso; apply H1; reflexivity|].
  unfold Run.big_spec_run2, Run.big_spec_run at 1.
  change (N.pos p =? 0) with false. change (1 =? 0) with false. cbv iota.
  rewrite (big_stream_sound sh nrec l tail f H3 H4).
  destruct (spec_outcome (dlt_message (Run.big_record sh (N.pos p)) f sh)); reflexivity.
Qed.

(* the length of the stream that is NOT walked *)
Lemma len_big_stream : forall sh nrec l tail, 4 <= l ->
  len (Run.big_stream sh nrec l tail) = nrec * (storage_len sh + l) + len tail.
Proof.
  intros sh nrec l tail Hlo. unfold Run.big_stream. rewrite len_app.
  assert (H : forall k, len (concat (repeat (Run.big_record sh l) k)) = N.of_nat k * (storage_len sh + l)).
  { induction k as [|k IH].
    - reflexivity.
    - cbn [repeat concat]. rewrite len_app, IH, (len_big_record sh l Hlo). lia. }
  rewrite H. lia.
Qed.
