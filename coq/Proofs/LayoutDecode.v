(* Proofs/LayoutDecode.v — C02 (decoding): for every byte string and both storage modes the verdict of the
   streaming parser [dlt_message] is that of the reference decoder [spec_decode] ("locate, cut exactly LEN
   bytes, decode the slice").  The parser runs on the whole input, the reference readers on the cut slice;
   both go through the same fixed-size fields, so each step is [field_cut]. *)
From Coq Require Import Lia ZifyBool ZifyN ZifyNat.
From DltV.Model Require Import Bytes RustInt Utf8 Nom Dlt Parse.
From DltV.Spec Require Import Layout.
From DltV.Proofs Require Import BytesBasics Fields ZString ParseLemmas Search Consumption
  LayoutVerdict LayoutBits LayoutArgs.
Open Scope N_scope.

(* ---------- readers on a cut slice, on explicit bytes ---------- *)
Lemma rd_cut {A} k (f : list byte -> A) m r : k <= m -> m <= len r ->
  rd k f (firstn (N.to_nat m) r)
  = Some (f (firstn (N.to_nat k) r), firstn (N.to_nat (m - k)) (skipn (N.to_nat k) r)).
Proof.
  intros Hk Hm. unfold rd. rewrite len_firstn_N by exact Hm.
  destruct (N.ltb_spec m k); [lia|].
  rewrite firstn_firstn, skipn_firstn_comm. repeat f_equal; lia.
Qed.

Lemma field_cut {A} (p : list byte -> pres A) k f m r v r' :
  field p k f -> p r = POk v r' -> k <= m -> m <= len r ->
  rd k f (firstn (N.to_nat m) r) = Some (v, firstn (N.to_nat (m - k)) r').
Proof.
  intros F E Hk Hm. destruct (field_inv _ _ _ _ _ _ F E) as (_ & -> & ->). now apply rd_cut.
Qed.

Lemma rd_opt_rd {A} (c : bool) k (f : list byte -> A) bs :
  rd_opt c (rd k f) bs = rd (if c then k else 0) (fun ch => if c then Some (f ch) else None) bs.
Proof.
  unfold rd_opt, rd. destruct c; [now destruct (len bs <? k)|].
  destruct (N.ltb_spec (len bs) 0); [lia | reflexivity].
Qed.
Lemma opt_cut {A} (c : bool) (p : list byte -> pres A) k f m r v r' :
  field p k f -> (if c then pmap Some (p r) else POk None r) = POk v r' ->
  (if c then k else 0) <= m -> m <= len r ->
  rd_opt c (rd k f) (firstn (N.to_nat m) r)
  = Some (v, firstn (N.to_nat (m - (if c then k else 0))) r').
Proof. intros F E. rewrite rd_opt_rd. exact (field_cut _ _ _ _ _ _ _ (field_opt c p k f F) E). Qed.

Lemma firstn_cons4 {A} (m : N) (b0 b1 b2 b3 : A) t : 4 <= m ->
  firstn (N.to_nat m) (b0 :: b1 :: b2 :: b3 :: t) = b0 :: b1 :: b2 :: b3 :: firstn (N.to_nat (m - 4)) t.
Proof.
  intros H. replace (N.to_nat m) with (S (S (S (S (N.to_nat (m - 4)))))) by lia. reflexivity.
Qed.

Lemma verdict_incomplete {A} (x : pres A) K tot :
  (exists n, x = PIncomplete n) -> verdict_of_len (pbind x K) tot = VIncomplete.
Proof. intros (n & ->). reflexivity. Qed.

(* ---------- the payload ---------- *)
(* an id of k bytes, then the rest of the declared payload: the message id of a non-verbose payload (with or
   without extended header) and the service id of a control payload *)
Lemma id_payload_verdict {A} (p : list byte -> pres A) k f (mk : A -> list byte -> payload) r PL :
  (forall i, k <= len i -> p i = POk (f (firstn (N.to_nat k) i)) (skipn (N.to_nat k) i)) -> PL <= len r ->
  match (if PL <? k then PFailure
         else let* (id, i1) := p r in let* (bs, rest) := take (PL - k) i1 in POk (mk id bs) rest) with
  | POk pl rest =>
    rest = skipn (N.to_nat PL) r /\
    (let? (id, r0) := rd k f (firstn (N.to_nat PL) r) in Some (mk id r0)) = Some pl
  | PError | PFailure =>
    (let? (id, r0) := rd k f (firstn (N.to_nat PL) r) in Some (mk id r0)) = None
  | _ => False
  end.
Proof.
  intros F Hfit. destruct (N.ltb_spec PL k) as [Hk|Hk].
  - unfold rd. rewrite len_firstn_N by exact Hfit. destruct (N.ltb_spec PL k); [reflexivity | lia].
  - rewrite F by lia. cbn [pbind]. rewrite (take_enough (PL - k)) by (rewrite len_skipn_N; lia). cbn [pbind].
    rewrite rd_cut by lia. cbn [obind]. rewrite skipn_skipn_add. split; [f_equal; lia | reflexivity].
Qed.

(* the service id is read by a complete-mode parser *)
Lemma u8_complete_long i : 1 <= len i ->
  u8_complete i = POk (get_uint BE (firstn (N.to_nat 1) i)) (skipn (N.to_nat 1) i).
Proof.
  destruct i as [|b i]; intros H; [rewrite len_nil in H; lia|].
  change (N.to_nat 1) with 1%nat. cbn [u8_complete firstn skipn]. now rewrite get_uint_single.
Qed.

Lemma payload_verdict e r PL (ext : option ext_header) :
  PL <= len r ->
  match dlt_payload e r (match ext with Some x => e_verbose x | None => false end) PL
          (match ext with Some x => e_noar x | None => 0 end) (option_map e_mtype ext) with
  | POk p rest =>
    rest = skipn (N.to_nat PL) r /\ decode_payload e ext (firstn (N.to_nat PL) r) = Some p
  | PError => decode_payload e ext (firstn (N.to_nat PL) r) = None
  | PFailure => decode_payload e ext (firstn (N.to_nat PL) r) = None
  | PIncomplete _ => False
  | PPanic => False
  end.
Proof.
  intros Hfit.
  pose proof (id_payload_verdict (uint e 4) 4 (get_uint e) PNonVerbose r PL
                (fun i => field_long _ _ _ i (field_uint e 4)) Hfit) as NV.
  unfold dlt_payload, decode_payload.
  destruct ext as [x|]; cbn [option_map]; [|exact NV].
  destruct (e_verbose x).
  - rewrite (take_enough PL) by exact Hfit. cbn [pbind].
    pose proof (agree_args e (N.to_nat (e_noar x)) (firstn (N.to_nat PL) r)) as AG.
    destruct (count (dlt_argument e) (N.to_nat (e_noar x)) (firstn (N.to_nat PL) r)) as [args rr| | | |];
      cbn [agree] in AG; try contradiction; rewrite AG; cbn [obind]; try reflexivity.
    destruct (e_mtype x); split; reflexivity.
  - destruct (e_mtype x) as [l|a|n|c|m1 m2]; try exact NV.
    exact (id_payload_verdict u8_complete 1 (get_uint BE) (fun id => PControl (control_from_value id)) r PL
             u8_complete_long Hfit).
Qed.

(* ---------- fixed-layout headers ---------- *)
Lemma len4_inv (c : list byte) : len c = 4 -> exists b0 b1 b2 b3, c = [b0; b1; b2; b3].
Proof.
  destruct c as [|b0 [|b1 [|b2 [|b3 [|b4 c]]]]]; unfold len; cbn [length]; intros H; try lia.
  now exists b0, b1, b2, b3.
Qed.

Lemma field_ext_header : field dlt_extended_header 10 ext_of.
Proof.
  eapply field_ext; cycle 1.
  - unfold dlt_extended_header. change 10 with (1 + (1 + (4 + (4 + 0)))).
    refine (field_bind _ _ _ _ _ _ (field_u8 BE) _). intros msin.
    refine (field_bind _ _ _ _ _ _ (field_u8 BE) _). intros noar.
    refine (field_bind _ _ _ _ _ _ (field_zstring 4) _). intros apid.
    refine (field_bind _ _ _ _ _ _ (field_zstring 4) _). intros ctid.
    refine (field_ret _).
  - intros c Hc.
    destruct c as [|b0 [|b1 [|b2 [|b3 [|b4 [|b5 [|b6 [|b7 [|b8 [|b9 [|b c]]]]]]]]]]];
      try (exfalso; unfold len in Hc; cbn [length] in Hc; lia).
    lazy [ext_of byte_at sub firstn skipn nth N.to_nat Pos.to_nat Pos.iter_op Nat.add N.add Pos.add Pos.succ].
    rewrite !get_uint_single.
    destruct (msin_dec (b2n b0) (b2n_lt b0)) as [-> ->]. reflexivity.
Qed.

(* ---------- the standard header, in the vocabulary of the layout ---------- *)
Lemma std_header_cons b0 b1 b2 b3 t :
  let htyp := b2n b0 in
  let LEN := get_uint BE [b2; b3] in
  dlt_standard_header (b0 :: b1 :: b2 :: b3 :: t) =
  let* (ecu, i3) := (if htyp_weid htyp then pmap Some (parse_ecu_id t) else POk None t) in
  let* (session, i4) := (if htyp_wsid htyp then pmap Some (uint BE 4 i3) else POk None i3) in
  let* (tms, i5) := (if htyp_wtms htyp then pmap Some (uint BE 4 i4) else POk None i4) in
  if LEN <? hdr_len htyp then PError
  else POk (mkStd (htyp_vers htyp) (if htyp_msbf htyp then BE else LE) (htyp_ueh htyp) (b2n b1)
              ecu session tms (LEN - hdr_len htyp)) i5.
Proof.
  intros htyp LEN. pose proof (htyp_dec htyp (b2n_lt b0)) as HF.
  unfold dlt_standard_header, u8.
  change (b0 :: b1 :: b2 :: b3 :: t) with ([b0] ++ [b1] ++ [b2; b3] ++ t).
  rewrite (field_app _ _ _ [b0] _ (field_uint BE 1)) by reflexivity. cbn [pbind].
  rewrite (field_app _ _ _ [b1] _ (field_uint BE 1)) by reflexivity. cbn [pbind].
  rewrite (field_app _ _ _ [b2; b3] _ (field_uint BE 2)) by reflexivity. cbn [pbind].
  rewrite !get_uint_single. fold htyp LEN.
  now rewrite (hf_ueh _ HF), (hf_msbf _ HF), (hf_weid _ HF), (hf_wsid _ HF), (hf_wtms _ HF),
    (hf_vers _ HF), (hf_all _ HF).
Qed.

(* ---------- everything behind the (optional) storage header ---------- *)
Lemma after_verdict shs a total : len a <= total ->
  verdict_of_len (dlt_message_after shs a None) total
  = decode_message (option_map fst shs) (total - len a) a.
Proof.
  intros Htot. unfold decode_message, dlt_message_after.
  destruct a as [|b0 [|b1 [|b2 [|b3 t]]]]. 1-4: reflexivity. (* M1 *)
  unfold byte_at, sub. cbn [nth skipn firstn]. cbv zeta.
  pose proof (std_header_cons b0 b1 b2 b3 t) as SC. cbv zeta in SC.
  set (htyp := b2n b0) in *. set (LEN := get_uint BE [b2; b3]) in *.
  set (k1 := if htyp_weid htyp then 4 else 0). set (k2 := if htyp_wsid htyp then 4 else 0).
  set (k3 := if htyp_wtms htyp then 4 else 0). set (kx := if htyp_ueh htyp then 10 else 0).
  assert (Hstd : std_len htyp = 4 + k1 + k2 + k3) by reflexivity.
  assert (Hh : hdr_len htyp = 4 + k1 + k2 + k3 + kx) by reflexivity.
  set (a := b0 :: b1 :: b2 :: b3 :: t) in *.
  assert (La : len a = 4 + len t) by (subst a; rewrite !len_cons; lia).
  pose proof (field_opt (htyp_weid htyp) parse_ecu_id 4 text_of (field_zstring 4)) as F1.
  pose proof (field_opt (htyp_wsid htyp) (uint BE 4) 4 (get_uint BE) (field_uint BE 4)) as F2.
  pose proof (field_opt (htyp_wtms htyp) (uint BE 4) 4 (get_uint BE) (field_uint BE 4)) as F3.
  pose proof (field_opt (htyp_ueh htyp) dlt_extended_header 10 ext_of field_ext_header) as FX.
  fold k1 in F1. fold k2 in F2. fold k3 in F3. fold kx in FX.
  destruct (N.ltb_spec (len a) 4) as [|_]; [lia|].
  destruct (N.ltb_spec (len a) (std_len htyp)) as [Hs|Hs].
  { (* M2: one of the optional fields of the standard header is cut short *)
    apply verdict_incomplete. rewrite SC.
    apply (needs_bind _ _ _ _ _ F1 (fun ecu => needs_bind _ _ _ _ _ F2 (fun ses =>
             needs_bind _ _ _ _ _ F3 (fun tms => needs_0 _)))). clear - Hs La Hstd. lia. }
  destruct (field_ok _ _ _ t F1) as (ecu & i3 & E1 & L1); [clear - Hs La Hstd; lia|].
  destruct (field_ok _ _ _ i3 F2) as (ses & i4 & E2 & L2); [clear - Hs La Hstd L1; lia|].
  destruct (field_ok _ _ _ i4 F3) as (tms & i5 & E3 & L3); [clear - Hs La Hstd L1 L2; lia|].
  cbv beta in E1, E2, E3. rewrite E1 in SC. cbn [pbind] in SC. rewrite E2 in SC. cbn [pbind] in SC.
  rewrite E3 in SC. cbn [pbind] in SC.
  destruct (LEN <? hdr_len htyp) eqn:Hl; [now rewrite SC|]. (* M3 *)
  apply N.ltb_ge in Hl.
  rewrite SC. cbn [pbind]. rewrite (vpl_of_parsed _ _ _ _ SC). change (declared_len a) with LEN.
  cbn [h_has_ext h_payload_length h_endian h_ecu].
  destruct (N.ltb_spec (len a) LEN) as [Hc|Hc].
  { (* M4 *) destruct (field_pres _ _ _ i5 FX) as [(x & r & E)|(n & E)]; cbv beta in E; now rewrite E. }
  (* M5 *)
  destruct (field_ok _ _ _ i5 FX) as (ext & i6 & E4 & L4); [clear - Hc Hl Hh La L1 L2 L3; lia|].
  cbv beta in E4. rewrite E4. cbn [pbind filtered_out].
  replace (firstn (N.to_nat LEN) a) with ([b0] ++ [b1] ++ [b2; b3] ++ firstn (N.to_nat (LEN - 4)) t)
    by (symmetry; apply firstn_cons4; clear - Hl Hh; lia).
  unfold decode_cut, rd_text, rd_uint.
  rewrite rd_app by reflexivity. cbn [obind]. rewrite rd_app by reflexivity. cbn [obind].
  rewrite rd_app by reflexivity. cbn [obind]. rewrite !get_uint_single. fold htyp.
  rewrite (opt_cut _ _ _ _ _ _ _ _ (field_zstring 4) E1) by (fold k1; clear - Hc Hl Hh La; lia). cbn [obind].
  rewrite (opt_cut _ _ 4 _ _ _ _ _ (field_uint BE 4) E2) by (fold k1 k2; clear - Hc Hl Hh La L1; lia). cbn [obind].
  rewrite (opt_cut _ _ 4 _ _ _ _ _ (field_uint BE 4) E3) by (fold k1 k2 k3; clear - Hc Hl Hh La L1 L2; lia).
  cbn [obind].
  rewrite (opt_cut _ _ _ _ _ _ _ _ field_ext_header E4) by (fold k1 k2 k3 kx; clear - Hc Hl Hh La L1 L2 L3; lia).
  cbn [obind]. fold k1 k2 k3 kx.
  replace (LEN - 4 - k1 - k2 - k3 - kx) with (LEN - hdr_len htyp) by (clear - Hh; lia).
  assert (Hfit : LEN - hdr_len htyp <= len i6) by (clear - Hc Hl Hh La L1 L2 L3 L4; lia).
  rewrite len_firstn_N by exact Hfit.
  pose proof (payload_verdict (if htyp_msbf htyp then BE else LE) i6 (LEN - hdr_len htyp) ext Hfit) as PV.
  match type of PV with
  | match ?X with _ => _ end => destruct X as [p rest| | | |]
  end; try contradiction; [destruct PV as [-> PV]|..]; rewrite PV; [|reflexivity..].
  cbn [pbind verdict_of_len]. f_equal. rewrite len_skipn_N. clear - Hc Hl Hh La L1 L2 L3 L4 Htot. lia.
Qed.

(* ---------- locating the storage header ---------- *)
Lemma marker_test l : bytes_eqb (firstn 4 l) storage_marker = starts_with pat_DLT1 l.
Proof.
  apply eq_true_iff_eq. rewrite bytes_eqb_eq, starts_with_iff. split.
  - intros H. exists (skipn 4 l). rewrite <- (firstn_skipn 4 l) at 1. now rewrite H.
  - intros (r & ->). reflexivity.
Qed.

Lemma find_marker_eq bs : find_marker bs = option_map N.of_nat (find_pattern bs).
Proof.
  induction bs as [|b r IH]; [reflexivity|].
  cbn [find_marker find_pattern]. rewrite marker_test.
  destruct (starts_with pat_DLT1 (b :: r)); [reflexivity|].
  rewrite IH. destruct (find_pattern r) as [k|]; cbn [option_map]; [|reflexivity]. f_equal. lia.
Qed.

Lemma field_storage (k : N) :
  field (fun r => let* (secs, i3) := uint LE 4 r in let* (micros, i4) := uint LE 4 i3 in
                  let* (ecu, after) := zstring 4 i4 in POk (Some (mkSH (mkTS secs micros) ecu, k)) after)
        12 (fun c => Some (storage_of (storage_marker ++ c), k)).
Proof.
  eapply field_ext; cycle 1.
  - change 12 with (4 + (4 + (4 + 0))).
    refine (field_bind _ _ _ _ _ _ (field_uint LE 4) _). intros secs.
    refine (field_bind _ _ _ _ _ _ (field_uint LE 4) _). intros micros.
    refine (field_bind _ _ _ _ _ _ (field_zstring 4) _). intros ecu.
    refine (field_ret _).
  - intros c Hc.
    destruct c as [|c0 [|c1 [|c2 [|c3 [|c4 [|c5 [|c6 [|c7 [|c8 [|c9 [|c10 [|c11 [|b c]]]]]]]]]]]]];
      try (exfalso; unfold len in Hc; cbn [length] in Hc; lia).
    reflexivity.
Qed.

Theorem spec_decode_correct bs sh : verdict_of (dlt_message bs None sh) bs = spec_decode sh bs.
Proof.
  unfold verdict_of, dlt_message, spec_decode. destruct sh.
  2: { cbn [pbind]. rewrite after_verdict by lia. now rewrite N.sub_diag. }
  unfold dlt_storage_header, forward_to_next_storage_header. rewrite find_marker_eq.
  destruct (len bs <? 16) eqn:E16; [reflexivity|]. (* S1 *)
  destruct (find_pattern bs) as [k|] eqn:Fp; cbn [option_map]; [|reflexivity]. (* S2 *)
  rewrite Nat2N.id.
  apply find_pattern_some in Fp as [(r' & Hr) _].
  pose proof (f_equal len Hr) as Lbs. rewrite len_skipn, len_app in Lbs. change (len pat_DLT1) with 4 in Lbs.
  rewrite Hr. change (pat_DLT1 ++ r') with ([x44; x4c; x54] ++ [x01] ++ r').
  rewrite tag_app. cbn [pbind]. rewrite tag_app. cbn [pbind].
  assert (L16 : len ([x44; x4c; x54] ++ [x01] ++ r') = 4 + len r') by (unfold len; rewrite !app_length; cbn [length]; lia).
  rewrite L16. destruct (N.ltb_spec (4 + len r') 16) as [H16|H16].
  - (* S3 *) apply verdict_incomplete, (field_short _ _ _ _ (field_storage (N.of_nat k))). lia.
  - (* S4 *) rewrite (bind_field_long _ _ _ _ _ (field_storage (N.of_nat k))) by lia. cbv beta.
    rewrite after_verdict by (rewrite len_skipn_N; lia).
    rewrite len_skipn_N. replace (len bs - (len r' - 12)) with (N.of_nat k + 16) by lia.
    reflexivity.
Qed.
