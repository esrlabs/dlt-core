(* Proofs/LayoutBits.v — C02: the bit layouts of Spec/Layout.v (testbit / div / mod / sums of bit
   weights) against the model's land/shiftr/lor code: HTYP, MSIN, type-info word, both directions. *)
From Coq Require Import Lia ZifyBool ZifyN ZifyNat.
From DltV.Model Require Import Bytes Dlt.
From DltV.Spec Require Import WellFormed Layout.
From DltV.Proofs Require Import BytesBasics Codes.
Open Scope N_scope.

(* ---------- HTYP, decoding ---------- *)
Record htyp_facts (b : N) : Prop := {
  hf_ueh : flag b 1 = htyp_ueh b;
  hf_msbf : flag b 2 = htyp_msbf b;
  hf_weid : flag b 4 = htyp_weid b;
  hf_wsid : flag b 8 = htyp_wsid b;
  hf_wtms : flag b 16 = htyp_wtms b;
  hf_vers : N.land (N.shiftr b 5) 7 = htyp_vers b;
  hf_std : calculate_standard_header_length b = std_len b;
  hf_all : calculate_all_headers_length b = hdr_len b }.

(* the layout of Spec/Layout.v is the one Codes.htyp_layout tabulates, written with div and mod *)
Lemma htyp_dec b : b < 256 -> htyp_facts b.
Proof.
  intros H. destruct (htyp_all b H) as [_ S]. unfold htyp_layout in S.
  apply andb_true_iff in S as [S Hall]. apply andb_true_iff in S as [S Hstd].
  apply andb_true_iff in S as [S Hvers]. repeat (apply andb_true_iff in S; destruct S as [S ?]).
  apply N.eqb_eq in Hall, Hstd, Hvers.
  split; try (now apply Bool.eqb_prop); [| exact Hstd | now rewrite Hall, Hstd].
  unfold htyp_vers, bits. change (2 ^ 5) with 32. change (2 ^ 3) with 8.
  rewrite N.mod_small by lia. exact Hvers.
Qed.

(* ---------- MSIN, decoding ---------- *)
Lemma mtype_of_eq a b : mtype_of a b = spec_mtype a b.
Proof. reflexivity. Qed.

Lemma msin_dec b : b < 256 ->
  msin_verbose b = bit b 0 /\ message_type_decode b = mtype_of (bits b 1 3) (bits b 4 4).
Proof.
  intros H. destruct (msin_all b H) as (_ & V & T). split; [exact V|]. rewrite T. unfold bits.
  change (2 ^ 1) with 2. change (2 ^ 3) with 8. change (2 ^ 4) with 16.
  rewrite (N.mod_small (b / 16)) by lia. reflexivity.
Qed.

(* ---------- type info, decoding ----------
   Like ti_decode (Codes.ti_decode_kind), ti_of_word finds the kind in the low 13 bits and copies the
   other fields; the two ways of finding the kind are compared on the 13-bit words. *)
(* kinds are compared through their plain encoding, which ti_decode inverts *)
Definition kind_code (o : option ti_kind) : N :=
  match o with Some k => ti_encode (mkTI k SAscii false false) | None => 0 end.
Lemma kind_code_inj a b : kind_code a = kind_code b -> a = b.
Proof.
  assert (D : forall o, option_map ti_kind_of (ti_decode (kind_code o)) = o).
  { intros [k|]; [|reflexivity]. cbn [kind_code]. now rewrite (proj1 (ti_roundtrip (mkTI k SAscii false false) eq_refl)). }
  intros H. rewrite <- (D a), H. apply D.
Qed.

Lemma only_type_bit_low w i : only_type_bit (N.land w (N.ones 13)) i = only_type_bit w i.
Proof. unfold only_type_bit, bit. cbn [forallb]. now rewrite !testbit_land_ones by reflexivity. Qed.

Lemma ti_of_word_kind w :
  ti_of_word w = option_map (ti_flags w) (option_map ti_kind_of (ti_of_word (N.land w 8191))).
Proof.
  unfold ti_of_word. change 8191 with (N.ones 13). rewrite !only_type_bit_low. unfold bits, bit.
  rewrite <- !N.shiftr_div_pow2, <- !N.land_ones, (testbit_land_ones w 13 12) by reflexivity.
  rewrite (shiftr_land_mask w (N.ones 13) 0 (N.ones 4)) by reflexivity.
  match goal with |- option_map _ ?K = _ => destruct K end; [|reflexivity].
  cbn [option_map ti_kind_of]. unfold ti_flags. change 2048 with (2 ^ 11). change 8192 with (2 ^ 13).
  now rewrite !land_pow2_eqb, !negb_involutive.
Qed.

Definition ti_dec_check (u : N) : bool :=
  kind_code (option_map ti_kind_of (ti_of_word u)) =? kind_code (ti_kind_decode u).
Lemma ti_dec_sweep : forallb ti_dec_check (words 13) = true.
Proof. vm_compute. reflexivity. Qed.

Theorem ti_of_word_decode w : ti_of_word w = ti_decode w.
Proof.
  rewrite ti_of_word_kind, ti_decode_kind. f_equal.
  pose proof ti_dec_sweep as S. rewrite forallb_forall in S. specialize (S _ (in_kind_words w)).
  apply N.eqb_eq, kind_code_inj in S. unfold ti_kind_decode in S. now rewrite land_mask in S by reflexivity.
Qed.

(* ---------- HTYP, encoding ---------- *)
Definition all_bools : list bool := [true; false].
Definition htyp_enc_check (v : N) : bool :=
  forallb (fun ueh : bool => forallb (fun msbf : bool => forallb (fun weid : bool => forallb (fun wsid : bool => forallb (fun wtms : bool =>
    htyp_encode ueh (if msbf then BE else LE) weid wsid wtms v =? htyp_word ueh msbf weid wsid wtms v)
    all_bools) all_bools) all_bools) all_bools) all_bools.
Lemma htyp_enc_sweep : forallb htyp_enc_check (range 8) = true.
Proof. vm_compute. reflexivity. Qed.
Lemma forallb_bools (P : bool -> bool) : forallb P all_bools = true -> forall b, P b = true.
Proof. intros H b. rewrite forallb_forall in H. apply H. destruct b; cbn; auto. Qed.
Lemma htyp_enc (ueh msbf weid wsid wtms : bool) v : v < 8 ->
  htyp_encode ueh (if msbf then BE else LE) weid wsid wtms v = htyp_word ueh msbf weid wsid wtms v.
Proof.
  intros H. apply N.eqb_eq.
  exact (forallb_bools _ (forallb_bools _ (forallb_bools _ (forallb_bools _ (forallb_bools _
           (range_sweep _ 8 htyp_enc_sweep v H) ueh) msbf) weid) wsid) wtms).
Qed.

(* ---------- MSIN, encoding ---------- *)
Definition msin_enc_ok (t : message_type) : bool :=
  forallb (fun v : bool => msin_encode t v =? msin_word v t) all_bools.
(* the message types with a numeric field, at MTIN = n (and MSTP = m for the unknown ones) *)
Definition msin_enc_check (n : N) : bool :=
  forallb (fun m => forallb (fun t => negb (wf_mtype t) || msin_enc_ok t)
    [MLog (LInvalid n); MAppTrace (AInvalid n); MNwTrace (NUserDefined n); MControl (CUnknown n); MUnknown m n])
    (range 8).
Lemma msin_enc_sweep : forallb msin_enc_check (range 16) = true.
Proof. vm_compute. reflexivity. Qed.
Lemma msin_enc_fixed :
  forallb msin_enc_ok
    [MLog Fatal; MLog LError; MLog Warn; MLog Info; MLog Debug; MLog Verbose;
     MAppTrace AVariable; MAppTrace AFunctionIn; MAppTrace AFunctionOut; MAppTrace AState; MAppTrace AVfb;
     MNwTrace NIpc; MNwTrace NCan; MNwTrace NFlexray; MNwTrace NMost; MNwTrace NEthernet; MNwTrace NSomeip;
     MNwTrace NInvalid; MControl CRequest; MControl CResponse] = true.
Proof. vm_compute. reflexivity. Qed.

Lemma msin_enc t (v : bool) : wf_mtype t = true -> msin_encode t v = msin_word v t.
Proof.
  intros W. apply N.eqb_eq, (forallb_bools (fun v => msin_encode t v =? msin_word v t)). change (msin_enc_ok t = true).
  assert (P : forall n m, n < 16 -> m < 8 ->
            In t [MLog (LInvalid n); MAppTrace (AInvalid n); MNwTrace (NUserDefined n); MControl (CUnknown n); MUnknown m n] ->
            msin_enc_ok t = true).
  { intros n m Hn Hm I. pose proof (range_sweep _ 8 (range_sweep _ 16 msin_enc_sweep n Hn) m Hm) as S.
    rewrite forallb_forall in S. specialize (S t I). now rewrite W in S. }
  destruct t as [[| | | | | |n]|[| | | | |n]|[| | | | | | |n]|[| |n]|m n]; try reflexivity;
    cbn in W; [apply (P n 0) | apply (P n 0) | apply (P n 0) | apply (P n 0) | apply (P n m)]; cbn; auto 8; lia.
Qed.

(* ---------- type info, encoding ---------- *)
Definition all_kinds : list ti_kind :=
  [KBool; KString; KRaw]
  ++ map KSigned [BL8; BL16; BL32; BL64; BL128] ++ map KUnsigned [BL8; BL16; BL32; BL64; BL128]
  ++ map KSignedFixed [W32; W64] ++ map KUnsignedFixed [W32; W64] ++ map KFloat [W32; W64].
Lemma in_all_kinds k : In k all_kinds.
Proof. destruct k as [|[]|[]|[]|[]|[]| |]; cbn; tauto. Qed.
Definition ti_enc_check (c : string_coding) : bool :=
  forallb (fun k => forallb (fun v : bool => forallb (fun tr : bool =>
    ti_encode (mkTI k c v tr) =? word_of_ti (mkTI k c v tr)) all_bools) all_bools) all_kinds.
Lemma ti_enc_sweep :
  forallb ti_enc_check ([SAscii; SUtf8] ++ map SReserved (range 8)) = true.
Proof. vm_compute. reflexivity. Qed.

Lemma ti_enc t : wf_coding (ti_coding t) = true -> ti_encode t = word_of_ti t.
Proof.
  destruct t as [k c v tr]. cbn [ti_coding]. intros W.
  pose proof ti_enc_sweep as S. rewrite forallb_forall in S.
  assert (I : In c ([SAscii; SUtf8] ++ map SReserved (range 8))).
  { destruct c as [| |n]; [cbn; auto | cbn; auto |].
    apply in_or_app. right. apply in_map, in_range_N. cbn in W. lia. }
  specialize (S c I). unfold ti_enc_check in S.
  rewrite forallb_forall in S. specialize (S k (in_all_kinds k)).
  apply N.eqb_eq. exact (forallb_bools _ (forallb_bools _ S v) tr).
Qed.
