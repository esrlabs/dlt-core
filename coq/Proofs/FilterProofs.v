(* Proofs/FilterProofs.v — C09: parsing with a filter = parsing without, except that exactly the
   messages failing the criteria of Spec/FilterSpec.v become FilteredOut markers. *)
From Coq Require Import Lia ZifyBool ZifyN ZifyNat.
From DltV.Model Require Import Bytes Nom Dlt Parse.
From DltV.Spec Require Import FilterSpec.
From DltV.Proofs Require Import BytesBasics ParseLemmas Consumption.
Open Scope N_scope.

(* ---------- sets: dedup (the model of HashSet::from_iter) against the raw list ---------- *)
Lemma mem_bytes_In x l : mem_bytes x l = true <-> In x l.
Proof.
  unfold mem_bytes. rewrite existsb_exists. split.
  - intros (y & Hy & E). apply bytes_eqb_eq in E. now subst.
  - intros H. exists x. split; [exact H | apply bytes_eqb_refl].
Qed.

Lemma mem_bytes_in_dec x l : mem_bytes x l = if in_dec bytes_eq_dec x l then true else false.
Proof.
  destruct (in_dec bytes_eq_dec x l) as [H|H].
  - now apply mem_bytes_In.
  - destruct (mem_bytes x l) eqn:E; [|reflexivity]. apply mem_bytes_In in E. contradiction.
Qed.

Lemma mem_dedup x l : mem_bytes x (dedup l) = mem_bytes x l.
Proof.
  induction l as [|y l IH]; [reflexivity|].
  cbn [dedup]. destruct (mem_bytes y l) eqn:E.
  - rewrite IH. unfold mem_bytes at 2. cbn [existsb]. fold (mem_bytes x l).
    destruct (bytes_eqb x y) eqn:Exy; [|reflexivity].
    apply bytes_eqb_eq in Exy. subst y. now rewrite E.
  - unfold mem_bytes in *. cbn [existsb]. now rewrite IH.
Qed.

Lemma dedup_nodup l : dedup l = nodup bytes_eq_dec l.
Proof.
  induction l as [|y l IH]; [reflexivity|].
  cbn [dedup nodup]. rewrite mem_bytes_in_dec, IH. now destruct (in_dec bytes_eq_dec y l).
Qed.

Lemma length_dedup l : length (dedup l) = distinct_count l.
Proof. unfold distinct_count. now rewrite dedup_nodup. Qed.

Lemma NoDup_dedup l : NoDup (dedup l).
Proof. rewrite dedup_nodup. apply NoDup_nodup. Qed.

(* the two Rust conversions (From<DltFilterConfig>, From<&DltFilterConfig>) build each HashSet from
   the same sequence of ids (the borrowed one from a clone of the Vec); a HashSet is determined,
   as far as `contains` and `len` are concerned, by exactly these two facts about the model's
   duplicate-free list: *)
Lemma conversions_agree l :
  (forall x, mem_bytes x (dedup l) = id_in x l) /\ length (dedup l) = distinct_count l /\ NoDup (dedup l).
Proof. split; [intros x; apply mem_dedup | split; [apply length_dedup | apply NoDup_dedup]]. Qed.

(* ---------- levels ---------- *)
Lemma u8_to_log_level_range v :
  (1 <=? v) && (v <=? 6) = match u8_to_log_level v with Some _ => true | None => false end.
Proof. destruct v as [|p]; [reflexivity|]. do 3 (destruct p as [p|p|]; try reflexivity). Qed.

Lemma u8_to_log_level_none v : v = 0 \/ 7 <= v -> u8_to_log_level v = None.
Proof.
  intros H. pose proof (u8_to_log_level_range v) as R. destruct (u8_to_log_level v); [|reflexivity].
  apply andb_true_iff in R as [R1 R2]. apply N.leb_le in R1, R2. lia.
Qed.

Lemma u8_to_log_level_number v l : u8_to_log_level v = Some l <-> level_number l = Some v.
Proof.
  split.
  - destruct v as [|p]; [discriminate|]. repeat (try discriminate; destruct p as [p|p|]);
      intros H; injection H as <-; reflexivity.
  - destruct l; cbn [level_number]; intros H; try discriminate; injection H as <-; reflexivity.
Qed.

(* hand-built processed configuration: the skip table incl. invalid levels (dlt.rs:546-556) *)
Lemma skip_with_level_table x min :
  skip_with_level x min =
  match e_mtype x with
  | MLog n => spec_skip_table n min
  | _ => false
  end.
Proof.
  unfold skip_with_level. destruct (e_mtype x) as [n| | | |]; try reflexivity.
  destruct n, min; reflexivity.
Qed.

Lemma level_criterion (min : option N) (x : ext_header) :
  (match (match min with Some v => u8_to_log_level v | None => None end) with
   | Some l => skip_with_level x l
   | None => false
   end) = spec_level_dropped min (e_mtype x).
Proof.
  destruct min as [v|]; [|reflexivity].
  unfold spec_level_dropped. rewrite (u8_to_log_level_range v).
  destruct (u8_to_log_level v) as [l|] eqn:E.
  - rewrite skip_with_level_table. apply u8_to_log_level_number in E.
    destruct (e_mtype x) as [n| | | |]; try reflexivity.
    unfold spec_skip_table. rewrite E. now destruct (level_number n).
  - destruct (e_mtype x) as [n| | | |]; try reflexivity. now destruct (level_number n).
Qed.

(* ---------- the decision procedure on a processed raw configuration = the sentence ---------- *)
Lemma set_criterion (s : option (list (list byte))) id :
  (match option_map dedup s with Some l => negb (mem_bytes id l) | None => false end) = not_allowed s id.
Proof. destruct s as [l|]; [|reflexivity]. cbn [option_map not_allowed]. now rewrite mem_dedup. Qed.

Lemma count_criterion (s : option (list (list byte))) (c : Z) :
  (match option_map dedup s with Some l => (Z.of_N (len l) <? c)%Z | None => false end)
  = smaller_than_count s c.
Proof.
  destruct s as [l|]; [|reflexivity]. cbn [option_map smaller_than_count].
  unfold len. rewrite nat_N_Z, length_dedup. reflexivity.
Qed.

Lemma filtered_out_spec cfg m :
  filtered_out (m_ext m) (Some (process_filter cfg)) (h_ecu (m_header m)) = spec_dropped cfg m.
Proof.
  unfold filtered_out, spec_dropped, process_filter.
  cbn [pf_min_log_level pf_app_ids pf_context_ids pf_ecu_ids pf_app_id_count pf_context_id_count].
  destruct (m_ext m) as [x|].
  - rewrite level_criterion, !set_criterion. f_equal.
    destruct (h_ecu (m_header m)) as [ecu|].
    + apply set_criterion.
    + now destruct (option_map dedup (fc_ecu_ids cfg)).
  - now rewrite !count_criterion.
Qed.

(* ---------- the parser with and without a filter ---------- *)
(* any processed configuration (also a hand-built one) *)
Theorem filter_relative bs pf sh m rest :
  dlt_message bs None sh = POk (Item m) rest ->
  dlt_message bs (Some pf) sh =
    if filtered_out (m_ext m) (Some pf) (h_ecu (m_header m))
    then POk (FilteredOut (h_payload_length (m_header m))) rest
    else POk (Item m) rest.
Proof.
  intros H. apply dlt_message_inv in H as (skip & a & st & h & a_std & ext & ah & _ & _ & _ & _ & _ & Eq & H).
  apply after_headers_step_inv in H as (S & p & -> & Ep). rewrite Eq. unfold after_headers_step.
  cbn [m_ext m_header]. destruct (filtered_out ext (Some pf) (h_ecu h)).
  - destruct S as (c & -> & Hc). now rewrite (take_app _ _ _ Hc).
  - now rewrite Ep.
Qed.

Theorem filter_spec bs cfg sh m rest :
  dlt_message bs None sh = POk (Item m) rest ->
  dlt_message bs (Some (process_filter cfg)) sh =
    if spec_dropped cfg m
    then POk (FilteredOut (h_payload_length (m_header m))) rest
    else POk (Item m) rest.
Proof. intros H. rewrite (filter_relative _ (process_filter cfg) _ _ _ H). now rewrite filtered_out_spec. Qed.

Corollary filter_kept_iff bs cfg sh m rest :
  dlt_message bs None sh = POk (Item m) rest ->
  (dlt_message bs (Some (process_filter cfg)) sh = POk (Item m) rest <-> spec_dropped cfg m = false).
Proof.
  intros H. rewrite (filter_spec _ cfg _ _ _ H). destruct (spec_dropped cfg m); split; try reflexivity; discriminate.
Qed.

(* ---------- message for message over a whole buffer ---------- *)
Lemma unfiltered_is_item bs sh pm rest : dlt_message bs None sh = POk pm rest -> exists m, pm = Item m.
Proof.
  intros H. apply dlt_message_inv in H as (skip & a & st & h & a_std & ext & ah & _ & _ & _ & _ & _ & _ & H).
  apply after_headers_step_inv in H as [_ H].
  destruct pm as [m|n|]; [now exists m | destruct H as [_ H]; discriminate H | destruct H].
Qed.

Definition apply_filter (cfg : filter_config) (pm : parsed_message) : parsed_message :=
  match pm with
  | Item m => if spec_dropped cfg m then FilteredOut (h_payload_length (m_header m)) else Item m
  | other => other
  end.

(* Repeated parsing: as long as the unfiltered parser delivers messages, the filtered parser delivers the
   same messages or their markers, in the same order, from the same positions.  Where the unfiltered parser
   stops, the filtered one stops too PROVIDED it does not succeed there (it can: a dropped message's payload
   is skipped unparsed, see c09_hyp_needed); e.g. when the rest is empty or incomplete. *)
Theorem filter_stream cfg fuel bs sh l r :
  parse_all fuel bs None sh = (l, r) ->
  is_ok (dlt_message r (Some (process_filter cfg)) sh) = false ->
  parse_all fuel bs (Some (process_filter cfg)) sh = (map (apply_filter cfg) l, r) /\
  Forall (fun pm => exists m, pm = Item m) l.
Proof.
  revert bs l r. induction fuel as [|fuel IH]; intros bs l r H Hstop.
  - cbn [parse_all] in *. injection H as <- <-. split; [reflexivity | constructor].
  - cbn [parse_all] in *.
    destruct (dlt_message bs None sh) as [pm rest| | | |] eqn:E.
    2-5: (injection H as Hl Hr; subst l r;
          destruct (dlt_message bs (Some (process_filter cfg)) sh);
          [cbn [is_ok] in Hstop; discriminate Hstop| | | |]; (split; [reflexivity | constructor])).
    destruct (parse_all fuel rest None sh) as [l0 r0] eqn:P. injection H as <- <-.
    destruct (unfiltered_is_item _ _ _ _ E) as (m & ->).
    rewrite (filter_spec _ cfg _ _ _ E).
    destruct (IH rest l0 r0 P Hstop) as [IH1 IH2].
    split; [|constructor; [now exists m | exact IH2]].
    cbn [map apply_filter]. destruct (spec_dropped cfg m); now rewrite IH1.
Qed.

(* ---------- example inputs for Properties/C09.v ---------- *)
(* verbose log message, level INFO (4), APID "A", CTID "C", one bool argument + 4 spare payload bytes *)
Definition ex_info : list byte :=
  [x21; x00; x00; x17; x41; x01; x41; x00; x00; x00; x43; x00; x00; x00;
   x10; x00; x00; x00; x01; x02; x03; x04; x05; xee; xee].
(* the same with MTIN = 9: LogLevel::Invalid(9) *)
Definition ex_invalid_level : list byte :=
  [x21; x00; x00; x17; x91; x01; x41; x00; x00; x00; x43; x00; x00; x00;
   x10; x00; x00; x00; x01; x02; x03; x04; x05; xee; xee].
(* with header ECU id "E1" *)
Definition ex_ecu : list byte :=
  [x25; x00; x00; x1b; x45; x31; x00; x00; x41; x01; x41; x00; x00; x00; x43; x00; x00; x00;
   x10; x00; x00; x00; x01; x02; x03; x04; x05; xee; xee].
(* no extended header, 4 payload bytes *)
Definition ex_noext : list byte := [x20; x00; x00; x08; x01; x02; x03; x04; xee].

Definition cfg_level (v : N) := mkFC (Some v) None None None 0 0.
