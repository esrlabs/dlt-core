(* Proofs/ScanProofs.v — the statistics scan (Model/Scan.v).  A: for every stream and read schedule it is the
   reader-free scan of Spec/ScanSpec.v (cut at the declared lengths, decode the headers of each piece), without
   panic or fuel exhaustion; B: on serialised well-formed messages each message is visited exactly once, in
   order, with its own headers; C: the standard collector fed by the scan is [collect_all] over its statistics. *)
From Coq Require Import Lia ZifyBool ZifyN ZifyNat.
From DltV.Model Require Import Bytes Nom Dlt Stats Reader Scan.
From DltV.Spec Require Import WellFormed ReaderSpec ScanSpec.
From DltV.Proofs Require Import BytesBasics Fields ParseLemmas Lengths Headers Roundtrip ReaderProofs.
Open Scope N_scope.

(* ================= A. the scan = the cuts, for every schedule ================= *)
Section GenericScan.
  Variable St : Type.
  Variable read_exact : N -> St -> xres * list byte * St.
  Variable view : St -> list byte.
  Hypothesis rx_spec : rx_ok view read_exact.

  Lemma scan_fuel_with_spec : forall fuel sh (r : reader St),
    len (rd_scratch r) = message_max_len ->
    (length (view (rd_src r)) < fuel)%nat ->
    scan_fuel_with read_exact fuel sh r = spec_scan_fuel fuel (view (rd_src r)) sh.
  Proof.
    induction fuel as [|fuel IH]; intros sh r Hbuf Hfuel; [lia|].
    cbn [scan_fuel_with spec_scan_fuel]. unfold scan_step_with.
    destruct (next_message_slice_spec St read_exact view rx_spec sh r) as (r' & E & Hm & V).
    cbv zeta in E, Hm, V. rewrite E. unfold slice_of. set (v := view (rd_src r)) in *.
    (* the default scratch holds every need *)
    pose proof (call_need_bounds sh v) as Hneed.
    replace (len (rd_scratch r) <? call_need sh v) with false by lia. specialize (V ltac:(lia)).
    rewrite <- len_to_nat in Hfuel. pose proof (spec_cut_spec sh v) as Hc. unfold call_need in V.
    destruct (spec_cut sh v) as [| | |n]; try reflexivity.
    rewrite is_nil_len, len_takeN. replace (N.min n (len v) =? 0) with false by lia.
    rewrite <- takeN_firstn, <- dropN_skipn.
    destruct (statistic_of_slice sh (takeN n v)) as [st rest|nd| | |]; try reflexivity.
    rewrite IH, V; [reflexivity|congruence|]. rewrite V, <- len_to_nat, len_dropN. lia.
  Qed.

  Lemma scan_collect_with_total : forall (C : Type) (g : C -> statistic_full -> C) fuel sh (r : reader St) c,
    scan_collect_with read_exact (fun c s => inl (g c s)) fuel sh r c
    = (fold_left g (fst (scan_fuel_with read_exact fuel sh r)) c, snd (scan_fuel_with read_exact fuel sh r)).
  Proof.
    intros C g. induction fuel as [|fuel IH]; intros sh r c; [reflexivity|].
    cbn [scan_collect_with scan_fuel_with].
    destruct (scan_step_with read_exact sh r) as [[s r']|e]; [|reflexivity].
    rewrite IH. destruct (scan_fuel_with read_exact fuel sh r') as [l e]. reflexivity.
  Qed.
End GenericScan.

Lemma scan_cap_spec : forall cap sigma s sh, scan_cap cap sigma s sh = spec_scan s sh.
Proof.
  intros. unfold scan_cap, scan_fuel, spec_scan.
  rewrite (scan_fuel_with_spec bufreader (br_read_exact cap) br_view (br_read_exact_spec cap)).
  - reflexivity.
  - apply len_new_scratch.
  - cbn [new_reader rd_src br_view br_buf br_src src_rest app]. lia.
Qed.

(* ----- no panic, and the fuel of [scan] suffices ----- *)
Lemma statistic_of_slice_no_panic sh bs : statistic_of_slice sh bs <> PPanic.
Proof.
  unfold statistic_of_slice. apply pbind_no_panic.
  - destruct sh; [apply pmap_no_panic, dlt_storage_header_no_panic | discriminate].
  - intros s0 r0. apply pbind_no_panic; [apply dlt_standard_header_no_panic|]. intros h r1.
    apply pbind_no_panic.
    + destruct (h_has_ext h); [apply pmap_no_panic, dlt_extended_header_no_panic | discriminate].
    + intros x r2. discriminate.
Qed.

Lemma spec_scan_fuel_end : forall fuel s sh, (length s < fuel)%nat ->
  snd (spec_scan_fuel fuel s sh) = ScanOk \/ exists e, snd (spec_scan_fuel fuel s sh) = ScanErr e.
Proof.
  induction fuel as [|fuel IH]; intros s sh Hf; [lia|].
  cbn [spec_scan_fuel]. pose proof (spec_cut_spec sh s) as Hc.
  destruct (spec_cut sh s) as [| | |n]; cbn [snd]; eauto.
  pose proof (statistic_of_slice_no_panic sh (firstn (N.to_nat n) s)) as Hp.
  destruct (statistic_of_slice sh (firstn (N.to_nat n) s)) as [st rest|nd| | |]; cbn [snd pres_end]; eauto;
    [|contradiction].
  specialize (IH (skipn (N.to_nat n) s) sh).
  destruct (spec_scan_fuel fuel (skipn (N.to_nat n) s) sh) as [l e]. apply IH.
  rewrite <- len_to_nat, len_skipn_N in *. lia.
Qed.

(* ================= B. a stream of serialised well-formed messages ================= *)

Lemma storage_len_has_storage m : wf_message m = true ->
  len (match m_storage m with Some s => storage_header_bytes s | None => [] end) = storage_len (has_storage m).
Proof.
  intros Hwf. apply wf_message_inv in Hwf as [Hs _]. unfold has_storage.
  destruct (m_storage m) as [s|]; [|reflexivity]. cbn [wf_opt] in Hs.
  apply (len_storage_header_bytes s Hs).
Qed.

Lemma overall_length_ge4 h x p : wf_body h x p -> 4 <= overall_length h /\ overall_length h < 65536.
Proof.
  intros W. rewrite (overall_length_small h (wb_len _ _ _ W)). pose proof (wb_len _ _ _ W).
  unfold overall_length_raw in *. lia.
Qed.

(* with [len_wf_message]: the first cut of message_bytes m ++ rest is the message *)
Lemma declared_len_message_bytes m rest : wf_message m = true ->
  ReaderSpec.declared_len (has_storage m) (message_bytes m ++ rest) = overall_length (m_header m).
Proof.
  intros Hwf. pose proof (storage_len_has_storage m Hwf) as Hs.
  apply wf_message_inv in Hwf as [_ W]. destruct (overall_length_ge4 _ _ _ W) as [_ Hlt].
  rewrite Roundtrip.message_bytes_eq, <- app_assoc.
  unfold body_bytes, std_header_bytes, put_uint. rewrite <- !app_assoc. cbn [le_put rev app].
  rewrite declared_len_at by exact Hs. apply be16, Hlt.
Qed.

Lemma spec_cut_message_bytes m rest : wf_message m = true ->
  spec_cut (has_storage m) (message_bytes m ++ rest) = CPiece (len (message_bytes m)).
Proof.
  intros Hwf. destruct (wf_message_inv m Hwf) as [_ W].
  apply (spec_cut_piece_intro _ _ rest (overall_length (m_header m))).
  - exact (len_wf_message m Hwf).
  - apply declared_len_message_bytes, Hwf.
  - apply (overall_length_ge4 _ _ _ W).
Qed.

Lemma statistic_of_slice_message_bytes m : wf_message m = true ->
  statistic_of_slice (has_storage m) (message_bytes m)
  = POk (statistic_full_of_message m) (payload_bytes (h_endian (m_header m)) (m_payload m)).
Proof.
  intros Hwf. destruct (wf_message_inv m Hwf) as [Hs W].
  destruct (stable_std_header _ (wb_std _ _ _ W) (wb_len _ _ _ W)) as [S1 _].
  destruct (stable_opt_ext _ _ _ W) as [X1 _].
  unfold statistic_of_slice, statistic_full_of_message, has_storage.
  rewrite Roundtrip.message_bytes_eq. unfold body_bytes.
  destruct m as [st h x p]. cbn [m_storage m_header m_ext m_payload] in *.
  destruct st as [s|]; cbn [wf_opt] in Hs.
  - rewrite (storage_header_roundtrip s _ Hs). unfold pmap in X1 |- *. cbn [pbind fst].
    rewrite S1. cbn [pbind]. rewrite X1. reflexivity.
  - cbn [app pbind]. rewrite S1. cbn [pbind]. rewrite X1. reflexivity.
Qed.

Lemma statistic_of_full_of_message m :
  statistic_of_full (statistic_full_of_message m) = statistic_of_message m.
Proof.
  unfold statistic_of_full, statistic_full_of_message, statistic_of_message.
  cbn [fs_level fs_std fs_ext fs_verbose]. destruct (m_ext m); reflexivity.
Qed.

Lemma spec_scan_messages : forall sh ms fuel,
  Forall (fun m => wf_message m = true /\ has_storage m = sh) ms -> (length (flat_map message_bytes ms) < fuel)%nat ->
  spec_scan_fuel fuel (flat_map message_bytes ms) sh = (map statistic_full_of_message ms, ScanOk).
Proof.
  intros sh ms. induction ms as [|m ms IH]; intros [|fuel] Hall Hf; try (cbn in Hf; lia).
  - cbn [flat_map map spec_scan_fuel]. rewrite spec_cut_nil. reflexivity.
  - inversion Hall as [|m' ms' [Hwf Hs] Hall' E1]; subst m' ms'.
    cbn [flat_map map spec_scan_fuel]. rewrite <- Hs.
    rewrite (spec_cut_message_bytes m _ Hwf), firstn_len_app, skipn_len_app.
    rewrite (statistic_of_slice_message_bytes m Hwf), Hs.
    rewrite IH; [reflexivity|exact Hall'|].
    (* a message is at least its standard header *)
    pose proof (len_wf_message m Hwf) as L. destruct (wf_message_inv m Hwf) as [_ W].
    destruct (overall_length_ge4 _ _ _ W) as [H4 _].
    cbn [flat_map] in Hf. rewrite app_length in Hf. unfold len in L. lia.
Qed.

(* C10 "visits each message exactly once with its decoded headers" *)
Theorem scan_cap_visits : forall cap sigma ms sh,
  Forall (fun m => wf_message m = true /\ has_storage m = sh) ms ->
  scan_cap cap sigma (flat_map message_bytes ms) sh = (map statistic_full_of_message ms, ScanOk).
Proof.
  intros cap sigma ms sh Hall. rewrite scan_cap_spec. apply spec_scan_messages; [exact Hall|lia].
Qed.

(* ================= C. the standard collector ================= *)
Lemma fold_left_map {A B C} (g : C -> B -> C) (f : A -> B) l c :
  fold_left g (map f l) c = fold_left (fun c a => g c (f a)) l c.
Proof. revert c; induction l as [|a l IH]; intros c; [reflexivity|]. cbn [map fold_left]. apply IH. Qed.

Theorem collect_statistics_scan : forall sigma s sh,
  collect_statistics sigma s sh
  = (collect_all (map statistic_of_full (fst (scan sigma s sh))), snd (scan sigma s sh)).
Proof.
  intros. unfold collect_statistics, std_collect_one.
  rewrite (scan_collect_with_total bufreader (br_read_exact default_cap) collector
             (fun c s => collect_statistic c (statistic_of_full s))).
  unfold scan, scan_cap, scan_fuel, collect_all. rewrite fold_left_map. reflexivity.
Qed.
