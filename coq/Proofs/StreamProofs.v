(* Proofs/StreamProofs.v — the async reader delivers the cuts of Spec/ReaderSpec.v for every poll schedule,
   hence exactly what the blocking reader delivers. *)
From Coq Require Import Lia ZifyBool ZifyN ZifyNat.
From DltV.Model Require Import Bytes Reader Stream.
From DltV.Spec Require Import ReaderSpec.
From DltV.Proofs Require Import BytesBasics ReaderProofs ReaderMml.
Open Scope N_scope.

(* Pending plays the role Interrupted plays for the blocking source *)
Definition poll_of_rres (r : rres) : poll (list byte) :=
  match r with ROk bs => Ready bs | RInterrupted => Pending end.

Lemma abr_poll_read_br_read : forall cap want br,
  abr_poll_read cap want br = (poll_of_rres (fst (br_read cap want br)), snd (br_read cap want br)).
Proof.
  intros cap want [buf [sg rest]].
  unfold abr_poll_read, br_read, abr_poll_fill_buf, br_fill_buf, asrc_poll_read, src_read.
  cbn [br_buf br_src src_sched src_rest].
  destruct (is_nil buf), (cap <=? want), sg as [|k sg]; try destruct (k =? 0); reflexivity.
Qed.

Lemma rx_poll_spec : forall fuel cap want got br,
  (N.to_nat (N.min want (len (br_view br))) < fuel)%nat ->
  match rx_poll fuel cap want got br with
  | (RxReady x, (_, got'), br') => rx_post br_view want got (br_view br) (x, got', br')
  | (RxPending, (want', got'), br') =>
    (length (br_sched br') < length (br_sched br))%nat
    /\ forall res, rx_post br_view want' got' (br_view br') res -> rx_post br_view want got (br_view br) res
  end.
Proof.
  induction fuel as [|fuel IH]; intros cap want got br Hf; [lia|].
  cbn [rx_poll]. destruct (want =? 0) eqn:E0.
  - assert (want = 0) by lia. subst want. apply rx_post_0.
  - pose proof (br_read_spec cap want br ltac:(lia)) as H.
    rewrite abr_poll_read_br_read.
    destruct (br_read cap want br) as [[bs|] br1]; cbn [fst snd poll_of_rres].
    + destruct H as (H1 & H2 & H3 & H4). rewrite H1 in *.
      destruct bs as [|b bs].
      * rewrite (H3 eq_refl). apply rx_post_eof; [lia|exact (H3 eq_refl)].
      * specialize (IH cap (want - len (b :: bs)) (got ++ b :: bs) br1).
        destruct (rx_poll fuel cap (want - len (b :: bs)) (got ++ b :: bs) br1) as [[[|x] [want' got']] br'].
        -- destruct IH as [Hs K]; [rewrite len_app, len_cons in *; lia|].
           split; [lia|]. intros res Hres. apply rx_post_step, K, Hres. exact H2.
        -- apply rx_post_step, IH; [exact H2|]. rewrite len_app, len_cons in *. lia.
    + destruct H as (H1 & H2). rewrite H1. split; [exact H2|auto].
Qed.

Lemma rx_await_spec : forall fuel cap want got br,
  (length (br_sched br) < fuel)%nat ->
  rx_post br_view want got (br_view br) (rx_await fuel cap want got br).
Proof.
  induction fuel as [|fuel IH]; intros cap want got br Hf; [lia|].
  cbn [rx_await].
  pose proof (rx_poll_spec (rx_poll_fuel want br) cap want got br) as H.
  destruct (rx_poll (rx_poll_fuel want br) cap want got br) as [[[|x] [want' got']] br'].
  - destruct H as [Hs K]; [|apply K, IH; lia].
    unfold rx_poll_fuel. rewrite <- !len_to_nat, !len_takeN. unfold br_view. rewrite len_app. lia.
  - apply H. unfold rx_poll_fuel. rewrite <- !len_to_nat, !len_takeN. unfold br_view. rewrite len_app. lia.
Qed.

Lemma abr_read_exact_spec : forall cap, rx_ok br_view (abr_read_exact cap).
Proof. intros cap want br. apply rx_await_spec. lia. Qed.

(* C08: the async reader delivers what the blocking reader delivers, whatever the poll and read schedules *)
Lemma async_eq_blocking_any : forall pi sigma s f sh,
  async_run_default pi s f sh = reader_run_default sigma s f sh.
Proof.
  intros. transitivity (spec_run s f sh, true); [|symmetry]; apply run_start_default.
  - apply abr_read_exact_spec.
  - apply br_read_exact_spec.
Qed.
