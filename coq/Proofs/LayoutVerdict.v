(* Proofs/LayoutVerdict.v — C02: the projection of the parser's result that is compared with the
   reference decoder of Spec/Layout.v (hints and error texts are projected away). *)
From DltV.Model Require Import Bytes Nom Dlt Parse.
From DltV.Spec Require Import Layout.
Open Scope N_scope.

(* [total]: length of the input the parser was run on *)
Definition verdict_of_len (x : pres parsed_message) (total : N) : verdict :=
  match x with
  | POk (Item m) rest => VMessage m (total - len rest)
  | POk (FilteredOut _) _ => VReject        (* cannot occur without a filter *)
  | POk Invalid _ => VReject                (* cannot occur: see Consumption.dlt_message_consumes *)
  | PIncomplete _ => VIncomplete
  | PError => VReject
  | PFailure => VReject
  | PPanic => VReject                       (* cannot occur: ParseLemmas.dlt_message_no_panic *)
  end.
Definition verdict_of (x : pres parsed_message) (input : list byte) : verdict :=
  verdict_of_len x (len input).
