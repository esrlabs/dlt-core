(* Proofs/Search.v — C06: the storage-header search finds the first occurrence of DLT\x01,
   and junk in front of a pattern does not move it (the pattern is unbordered). *)
From Coq Require Import Lia ZifyBool ZifyN ZifyNat.
From DltV.Model Require Import Bytes Parse.
From DltV.Proofs Require Import BytesBasics.
Open Scope N_scope.

Definition pattern_at (bs : list byte) (k : nat) : Prop := exists r, skipn k bs = pat_DLT1 ++ r.

Lemma starts_with_iff p i : starts_with p i = true <-> exists r, i = p ++ r.
Proof.
  revert i; induction p as [|a p IH]; intros i.
  - split; [now exists i | reflexivity].
  - destruct i as [|b i]; cbn [starts_with].
    + split; [discriminate | intros (r & H); discriminate].
    + rewrite andb_true_iff, byte_eqb_eq, IH. split.
      * intros (-> & r & ->). now exists r.
      * intros (r & H). injection H as -> ->. split; [reflexivity | now exists r].
Qed.

Lemma pattern_at_0 bs : pattern_at bs 0 <-> starts_with pat_DLT1 bs = true.
Proof. unfold pattern_at. cbn [skipn]. symmetry. apply starts_with_iff. Qed.
Lemma pattern_at_S b bs k : pattern_at (b :: bs) (S k) <-> pattern_at bs k.
Proof. reflexivity. Qed.
Lemma pattern_at_nil k : ~ pattern_at [] k.
Proof. intros (r & H). rewrite skipn_nil in H. discriminate. Qed.

Lemma find_pattern_spec bs :
  match find_pattern bs with
  | Some k => pattern_at bs k /\ forall j, (j < k)%nat -> ~ pattern_at bs j
  | None => forall j, ~ pattern_at bs j
  end.
Proof.
  induction bs as [|b bs IH]; [exact pattern_at_nil|].
  cbn [find_pattern]. destruct (starts_with pat_DLT1 (b :: bs)) eqn:E.
  - split; [now apply pattern_at_0 | lia].
  - assert (E0 : ~ pattern_at (b :: bs) 0) by (rewrite pattern_at_0; congruence).
    destruct (find_pattern bs) as [k|]; cbn [option_map].
    + destruct IH as [H1 H2]. split; [exact H1|]. intros [|j] Hj; [exact E0 | apply H2; lia].
    + intros [|j]; [exact E0 | apply IH].
Qed.

Lemma find_pattern_some bs k :
  find_pattern bs = Some k <-> pattern_at bs k /\ forall j, (j < k)%nat -> ~ pattern_at bs j.
Proof.
  pose proof (find_pattern_spec bs) as S. split; [intros E; now rewrite E in S|]. intros [H1 H2].
  destruct (find_pattern bs) as [k'|]; [|now apply S in H1]. destruct S as [S1 S2]. f_equal.
  destruct (Nat.lt_trichotomy k' k) as [L|[L|L]]; [now apply H2 in L | exact L | now apply S2 in L].
Qed.

Lemma find_pattern_none bs : find_pattern bs = None <-> forall j, ~ pattern_at bs j.
Proof.
  pose proof (find_pattern_spec bs) as S. destruct (find_pattern bs) as [k|]; split; intros H;
    [discriminate H | destruct (H k (proj1 S)) | exact S | reflexivity].
Qed.

Lemma forward_spec bs :
  match forward_to_next_storage_header bs with
  | Some (k, r) => r = skipn (N.to_nat k) bs /\ pattern_at bs (N.to_nat k)
                   /\ forall j, (j < N.to_nat k)%nat -> ~ pattern_at bs j
  | None => forall j, ~ pattern_at bs j
  end.
Proof.
  unfold forward_to_next_storage_header. pose proof (find_pattern_spec bs) as S.
  destruct (find_pattern bs) as [k|]; [rewrite Nat2N.id; now split | exact S].
Qed.

Lemma forward_none_iff bs :
  forward_to_next_storage_header bs = None <-> forall j, ~ pattern_at bs j.
Proof.
  unfold forward_to_next_storage_header. rewrite <- find_pattern_none.
  destruct (find_pattern bs); split; intros H; try reflexivity; discriminate.
Qed.

(* ---------- junk in front of a pattern ---------- *)
Lemma starts_with_pat_4 a b c d r : starts_with pat_DLT1 (a :: b :: c :: d :: r) = starts_with pat_DLT1 [a; b; c; d].
Proof. unfold pat_DLT1. cbn [starts_with]. now rewrite !andb_true_r. Qed.

(* DLT\x01 is unbordered: it cannot start inside non-empty junk and end inside a following pattern
   unless it lies completely inside the junk *)
Lemma unbordered j x :
  j <> [] -> starts_with pat_DLT1 (j ++ pat_DLT1 ++ x) = true -> starts_with pat_DLT1 j = true.
Proof.
  intros Hne H.
  destruct j as [|a [|b [|c [|d j]]]]; [congruence| | | |].
  (* shorter junk: the pattern's 'D' would have to equal one of its own later bytes *)
  1-3: exfalso; unfold pat_DLT1 in H; cbn [app starts_with] in H;
       rewrite !andb_true_iff, !byte_eqb_eq in H; intuition discriminate.
  cbn [app] in H. rewrite starts_with_pat_4 in H. now rewrite starts_with_pat_4.
Qed.

Lemma find_pattern_junk junk x :
  find_pattern junk = None -> find_pattern (junk ++ pat_DLT1 ++ x) = Some (length junk).
Proof.
  induction junk as [|a j IH]; intros H.
  - cbn [app length find_pattern].
    assert (E : starts_with pat_DLT1 (pat_DLT1 ++ x) = true) by (apply starts_with_iff; now exists x).
    destruct (pat_DLT1 ++ x) eqn:P; [discriminate|]. cbn [find_pattern]. now rewrite E.
  - cbn [find_pattern] in H. destruct (starts_with pat_DLT1 (a :: j)) eqn:E; [discriminate|].
    destruct (find_pattern j) eqn:F; [discriminate|].
    cbn [app length find_pattern].
    destruct (starts_with pat_DLT1 (a :: j ++ pat_DLT1 ++ x)) eqn:E2.
    + exfalso. apply (unbordered (a :: j) x) in E2; [congruence | discriminate].
    + now rewrite (IH eq_refl).
Qed.

Lemma forward_junk junk x :
  find_pattern junk = None ->
  forward_to_next_storage_header (junk ++ pat_DLT1 ++ x) = Some (len junk, pat_DLT1 ++ x).
Proof.
  intros H. unfold forward_to_next_storage_header. rewrite (find_pattern_junk junk x H).
  rewrite skipn_app, Nat.sub_diag, skipn_all. reflexivity.
Qed.
