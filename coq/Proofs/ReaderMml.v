(* Proofs/ReaderMml.v — the run of the specification with a caller-chosen scratch length (message_max_len),
   Spec/ReaderMmlSpec.spec_run_mml, which both readers deliver for every schedule and every BufReader
   capacity (ReaderProofs.run_start): when every need fits it is spec_run (C07/C08 are the instance
   mml = 16 + 65535); otherwise it ends with a panic at the first call whose need exceeds the scratch. *)
From Coq Require Import Lia ZifyBool ZifyN ZifyNat.
From DltV.Model Require Import Bytes Parse Reader ReaderMml.
From DltV.Model Require Run.
From DltV.Spec Require Import ReaderSpec ReaderMmlSpec.
From DltV.Proofs Require Import ReaderProofs.
Open Scope N_scope.

(* ================= the needs, call by call ================= *)
Lemma spec_needs_fuel_S : forall fuel s sh,
  spec_needs_fuel (S fuel) s sh
  = call_need sh s :: match cut_next sh s with
                      | Some n => spec_needs_fuel fuel (skipn (N.to_nat n) s) sh
                      | None => []
                      end.
Proof. intros. cbn [spec_needs_fuel]. unfold call_need, cut_next. destruct (spec_cut sh s); reflexivity. Qed.

(* 16 + 65535: declared lengths are u16 *)
Lemma spec_needs_fuel_bounds : forall sh fuel s,
  Forall (fun t => hdr_len sh <= t <= message_max_len) (spec_needs_fuel fuel s sh).
Proof.
  intros sh. induction fuel as [|fuel IH]; intros s; [constructor|].
  rewrite spec_needs_fuel_S. constructor; [apply call_need_bounds|].
  destruct (cut_next sh s); [apply IH|constructor].
Qed.

(* ================= the run with a scratch of m bytes, read off the needs ================= *)
Lemma spec_run_mml_fuel_first_over : forall f sh m fuel s,
  spec_run_mml_fuel fuel m s f sh
  = match first_over m (spec_needs_fuel fuel s sh) with
    | None => spec_run_fuel fuel s f sh
    | Some i => until_panic (firstn i (spec_run_fuel fuel s f sh) ++ [OPanic])
    end.
Proof.
  intros f sh m. induction fuel as [|fuel IH]; intros s; [reflexivity|].
  rewrite spec_run_mml_fuel_S, spec_needs_fuel_S. cbn [first_over spec_run_fuel].
  destruct (m <? call_need sh s); [reflexivity|].
  (* the tail of a call that fits *)
  assert (Hrec : forall o s', o <> OPanic ->
            o :: spec_run_mml_fuel fuel m s' f sh
            = match option_map S (first_over m (spec_needs_fuel fuel s' sh)) with
              | None => o :: spec_run_fuel fuel s' f sh
              | Some i => until_panic (firstn i (o :: spec_run_fuel fuel s' f sh) ++ [OPanic])
              end).
  { intros o s' Ho. rewrite IH. destruct (first_over m _); cbn [option_map firstn app until_panic];
      [destruct o; congruence|reflexivity]. }
  unfold cut_next. destruct (spec_cut sh s) as [| | |n]; try reflexivity.
  - apply Hrec. discriminate.
  - destruct (spec_outcome (dlt_message (firstn (N.to_nat n) s) f sh)) as [pm|e|] eqn:Eo;
      [apply Hrec; discriminate..|].
    destruct (first_over m _); reflexivity.
Qed.

Lemma first_over_none : forall m l, first_over m l = None <-> forallb (fun t => t <=? m) l = true.
Proof.
  intros m. induction l as [|t l IH]; cbn [first_over forallb]; [split; reflexivity|].
  destruct (m <? t) eqn:E.
  - replace (t <=? m) with false by lia. cbn [andb]. split; discriminate.
  - replace (t <=? m) with true by lia. cbn [andb].
    destruct (first_over m l) as [i|]; cbn [option_map].
    + split; [discriminate|]. intros H. apply IH in H. discriminate.
    + split; [intros _; apply IH; reflexivity|reflexivity].
Qed.

Lemma fits_mml_first_over : forall mml s sh,
  fits_mml mml s sh = true <-> first_over mml (spec_needs s sh) = None.
Proof. intros. unfold fits_mml. symmetry. apply first_over_none. Qed.

Lemma spec_run_mml_fits : forall mml s f sh, fits_mml mml s sh = true ->
  spec_run_mml mml s f sh = spec_run s f sh.
Proof.
  intros mml s f sh H. apply fits_mml_first_over in H.
  unfold spec_run_mml. rewrite spec_run_mml_fuel_first_over. fold (spec_needs s sh). rewrite H. reflexivity.
Qed.

Lemma spec_run_mml_over : forall mml s f sh i,
  first_over mml (spec_needs s sh) = Some i ->
  spec_run_mml mml s f sh = until_panic (firstn i (spec_run s f sh) ++ [OPanic]).
Proof.
  intros mml s f sh i H.
  unfold spec_run_mml. rewrite spec_run_mml_fuel_first_over. fold (spec_needs s sh). rewrite H. reflexivity.
Qed.

Lemma until_panic_clean : forall l, ~ In OPanic l -> until_panic (l ++ [OPanic]) = l ++ [OPanic].
Proof.
  induction l as [|o l IH]; intros Hn; [reflexivity|].
  cbn [app until_panic].
  destruct o as [pm|e|]; [f_equal; apply IH; intros H; apply Hn; right; exact H..|].
  exfalso. apply Hn. left. reflexivity.
Qed.

Lemma spec_run_mml_too_long : forall mml s f sh i,
  first_over mml (spec_needs s sh) = Some i ->
  ~ In OPanic (firstn i (spec_run s f sh)) ->
  spec_run_mml mml s f sh = firstn i (spec_run s f sh) ++ [OPanic].
Proof.
  intros mml s f sh i H Hn. rewrite (spec_run_mml_over _ _ _ _ i H). apply until_panic_clean, Hn.
Qed.

(* even on an empty stream *)
Lemma spec_run_mml_no_header : forall mml s f sh,
  mml < hdr_len sh -> spec_run_mml mml s f sh = [OPanic].
Proof.
  intros mml s f sh Hm. unfold spec_run_mml. rewrite Nat.add_1_r, spec_run_mml_fuel_S.
  pose proof (call_need_bounds sh s). replace (mml <? call_need sh s) with true by lia. reflexivity.
Qed.

(* ================= the needs, read off spec_cuts ================= *)
Lemma spec_needs_fuel_by_cuts : forall sh fuel off s, (length s < fuel)%nat ->
  let r := dropN (cuts_total (spec_cuts_fuel fuel off s sh)) s in
  (spec_cut sh r = CEnd \/ spec_cut sh r = CTrunc)
  /\ spec_needs_fuel fuel s sh = map snd (spec_cuts_fuel fuel off s sh) ++ [call_need sh r].
Proof.
  intros sh. induction fuel as [|fuel IH]; intros off s Hf; [lia|].
  cbv zeta. rewrite spec_needs_fuel_S, spec_cuts_fuel_S.
  destruct (cut_next sh s) as [n|] eqn:En.
  - destruct (IH (off + n) (skipn (N.to_nat n) s)) as (I1 & I2).
    { apply cut_next_shorter in En. lia. }
    cbv zeta in I1, I2. rewrite <- dropN_skipn in *.
    cbn [cuts_total fold_right map app snd].
    fold (cuts_total (spec_cuts_fuel fuel (off + n) (dropN n s) sh)).
    rewrite <- dropN_dropN. split; [exact I1|].
    assert (call_need sh s = n) as -> by (unfold call_need, cut_next in *; destruct (spec_cut sh s); congruence).
    f_equal. exact I2.
  - cbn [cuts_total fold_right map app]. rewrite dropN_0. split; [|reflexivity].
    unfold cut_next in En. destruct (spec_cut sh s); auto; discriminate.
Qed.

(* [last_need]: a header, or the declared total of a trailing record cut off by the end of the stream *)
Lemma spec_needs_by_cuts : forall s sh,
  spec_needs s sh = map snd (spec_cuts s sh) ++ [last_need s sh].
Proof.
  intros s sh. unfold spec_needs, last_need, trailing_total, spec_rest, spec_cuts.
  destruct (spec_needs_fuel_by_cuts sh (length s + 1) 0 s ltac:(lia)) as (H & E).
  cbv zeta in H, E. rewrite E, <- dropN_skipn. unfold call_need.
  destruct H as [-> | ->]; reflexivity.
Qed.

Lemma trailing_total_ge_hdr : forall s sh t, trailing_total s sh = Some t -> hdr_len sh <= t.
Proof.
  intros s sh t. unfold trailing_total.
  destruct (spec_cut sh (spec_rest s sh)) eqn:E; try discriminate.
  intros [= <-]. pose proof (spec_cut_spec sh (spec_rest s sh)) as H4. rewrite E in H4. unfold hdr_len. lia.
Qed.

Lemma fits_mml_iff : forall mml s sh,
  fits_mml mml s sh = true
  <-> hdr_len sh <= mml
      /\ Forall (fun c => snd c <= mml) (spec_cuts s sh)
      /\ (forall t, trailing_total s sh = Some t -> t <= mml).
Proof.
  intros mml s sh. unfold fits_mml. rewrite spec_needs_by_cuts, forallb_app.
  cbn [forallb]. rewrite andb_true_r, Bool.andb_true_iff, forallb_forall, Forall_forall.
  unfold last_need. split.
  - intros (Hc & Hl). split; [|split].
    + destruct (trailing_total s sh) as [t|] eqn:Et; [|lia].
      pose proof (trailing_total_ge_hdr s sh t Et). lia.
    + intros c Hin. assert (K : (snd c <=? mml) = true) by (apply Hc, in_map, Hin). lia.
    + intros t Et. rewrite Et in Hl. lia.
  - intros (Hh & Hc & Ht). split.
    + intros t Hin. apply in_map_iff in Hin. destruct Hin as (c & <- & Hin).
      pose proof (Hc c Hin). lia.
    + destruct (trailing_total s sh) as [t|]; [pose proof (Ht t eq_refl)|]; lia.
Qed.

Lemma fits_mml_ge_default : forall mml s sh, message_max_len <= mml -> fits_mml mml s sh = true.
Proof.
  intros mml s sh Hm. unfold fits_mml. apply forallb_forall. intros t Hin.
  pose proof (spec_needs_fuel_bounds sh (length s + 1) s) as H.
  rewrite Forall_forall in H. specialize (H t Hin). lia.
Qed.

Lemma fits_mml_default : forall s sh, fits_mml message_max_len s sh = true.
Proof. intros. apply fits_mml_ge_default, N.le_refl. Qed.

(* ================= the default scratch is an instance ================= *)
Lemma run_start_default : forall rx, rx_ok br_view rx -> forall sg s f sh,
  run_with rx true (length s + 1) f sh (new_reader sg s) = (spec_run s f sh, true).
Proof.
  intros rx Hrx sg s f sh. change (new_reader sg s) with (reader_mml message_max_len sg s).
  rewrite (run_start rx Hrx), spec_run_mml_fits by apply fits_mml_default. reflexivity.
Qed.

(* ================= the tie to the function the differential test evaluates ================= *)
Lemma run_reader_of_mml : forall mml sigma s, mml <> 0 ->
  Run.reader_of mml sigma s = mkReader (mkBR [] (mkSrc sigma s)) (scratch_of mml).
Proof.
  intros mml sigma s H. unfold Run.reader_of.
  destruct (mml =? 0) eqn:E; [lia|reflexivity].
Qed.
