(* Proofs/ZString.v — C19: the fixed-size, NUL-terminated string field parser
   [Parse.zstring] (dlt_zero_terminated_string_intern, parse.rs:314-343). *)
From Coq Require Import Lia ZifyBool ZifyN ZifyNat.
From DltV.Model Require Import Bytes Utf8 Nom Parse.
From DltV.Proofs Require Import BytesBasics Fields Utf8Lemmas.
Open Scope N_scope.

Fixpoint upto_nul (l : list byte) : list byte :=
  match l with [] => [] | b :: r => if is_nul b then [] else b :: upto_nul r end.

Lemma upto_nul_no_nul l : no_nul (upto_nul l) = true.
Proof.
  induction l as [|b r IH]; [reflexivity|].
  cbn [upto_nul]. destruct (is_nul b) eqn:E; [reflexivity|].
  rewrite no_nul_cons, E, IH. reflexivity.
Qed.

Lemma upto_nul_id l : no_nul l = true -> upto_nul l = l.
Proof.
  induction l as [|b r IH]; [reflexivity|].
  rewrite no_nul_cons. intros H. apply andb_true_iff in H. destruct H as [Hb Hr].
  cbn [upto_nul]. destruct (is_nul b); [discriminate|]. rewrite (IH Hr). reflexivity.
Qed.

Lemma upto_nul_fix_iff l : upto_nul l = l <-> no_nul l = true.
Proof.
  split; [|apply upto_nul_id]. intros H. rewrite <- H. apply upto_nul_no_nul.
Qed.

Lemma upto_nul_split l :
  exists r, l = upto_nul l ++ r /\ (r = [] \/ exists r', r = x00 :: r').
Proof.
  induction l as [|b l IH].
  - exists []. split; [reflexivity|left; reflexivity].
  - cbn [upto_nul]. destruct (is_nul b) eqn:E.
    + exists (b :: l). split; [reflexivity|]. right. exists l.
      apply is_nul_iff in E. rewrite E. reflexivity.
    + destruct IH as (r & Hl & Hr). exists r. split; [|exact Hr].
      cbn [app]. rewrite <- Hl. reflexivity.
Qed.

Lemma upto_nul_len_le l : len (upto_nul l) <= len l.
Proof.
  destruct (upto_nul_split l) as (r & Hl & _).
  rewrite Hl at 2. rewrite len_app. lia.
Qed.

Lemma upto_nul_idem l : upto_nul (upto_nul l) = upto_nul l.
Proof. apply upto_nul_id, upto_nul_no_nul. Qed.

Lemma upto_nul_app_nul s r : no_nul s = true -> upto_nul (s ++ x00 :: r) = s.
Proof.
  induction s as [|b s IH]; [reflexivity|].
  rewrite no_nul_cons. intros H. apply andb_true_iff in H. destruct H as [Hb Hs].
  cbn [app upto_nul]. destruct (is_nul b); [discriminate|]. rewrite (IH Hs). reflexivity.
Qed.

Lemma upto_nul_app_pad s pad : no_nul s = true -> upto_nul (s ++ repeat x00 pad) = s.
Proof.
  intros H. destruct pad as [|pad].
  - cbn [repeat]. rewrite app_nil_r. apply upto_nul_id, H.
  - cbn [repeat]. apply upto_nul_app_nul, H.
Qed.

(* ---------- position of the first NUL ---------- *)

Lemma position_is_nul l :
  position is_nul l = if no_nul l then None else Some (length (upto_nul l)).
Proof.
  induction l as [|b r IH]; [reflexivity|].
  cbn [position upto_nul]. rewrite no_nul_cons. destruct (is_nul b); [reflexivity|].
  rewrite IH. cbn [negb andb]. now destruct (no_nul r).
Qed.

Lemma upto_nul_firstn n l : upto_nul (firstn n l) = firstn (Nat.min n (length (upto_nul l))) l.
Proof.
  revert n. induction l as [|b r IH]; intros [|n]; try reflexivity.
  cbn [firstn upto_nul]. destruct (is_nul b); [reflexivity|].
  cbn [length Nat.min firstn]. now rewrite IH.
Qed.

(* ---------- zstring ---------- *)

(* take_while_m_n(0, n, not NUL): the content is what precedes the first NUL among the first n bytes;
   without a NUL and with fewer than n bytes it cannot know whether more content follows *)
Lemma take_while_eq n s :
  take_while_0_n_not_nul n s =
  if no_nul s && (len s <? n) then PIncomplete (Some 1)
  else let content := upto_nul (firstn (N.to_nat n) s) in POk content (skipn (length content) s).
Proof.
  unfold take_while_0_n_not_nul. cbv zeta. rewrite position_is_nul, upto_nul_firstn.
  pose proof (upto_nul_len_le s) as Hk. unfold len in *.
  rewrite firstn_length_le by lia.
  destruct (no_nul s) eqn:Hn; cbn [andb].
  - rewrite (upto_nul_id s Hn), N.leb_antisym.
    destruct (N.ltb_spec (N.of_nat (length s)) n); cbn [negb]; [reflexivity|].
    now replace (Nat.min (N.to_nat n) (length s)) with (N.to_nat n) by lia.
  - destruct (N.leb_spec (N.of_nat (length (upto_nul s))) n).
    + now replace (Nat.min (N.to_nat n) (length (upto_nul s))) with (length (upto_nul s)) by lia.
    + now replace (Nat.min (N.to_nat n) (length (upto_nul s))) with (N.to_nat n) by lia.
Qed.

(* the exact hint: the shortfall when a NUL is present, 1 ("at least one more") otherwise *)
Lemma zstring_eq size s :
  zstring size s =
  if size <=? len s then POk (utf8_prefix (upto_nul (firstn (N.to_nat size) s))) (skipn (N.to_nat size) s)
  else PIncomplete (Some (if no_nul s then 1 else size - len s)).
Proof.
  unfold zstring. rewrite take_while_eq. destruct (no_nul s && (len s <? size)) eqn:E.
  - apply andb_true_iff in E as [-> E]. apply N.ltb_lt in E.
    destruct (N.leb_spec size (len s)); [lia | reflexivity].
  - cbv zeta. cbn [pbind]. set (content := upto_nul (firstn (N.to_nat size) s)).
    pose proof (upto_nul_len_le (firstn (N.to_nat size) s)) as Hc. fold content in Hc.
    pose proof (len_firstn_le (N.to_nat size) s). pose proof (len_firstn_le_len (N.to_nat size) s).
    destruct (N.ltb_spec size (len content)); [lia|].
    unfold take. rewrite len_skipn. fold (len content).
    destruct (N.leb_spec size (len s)).
    + destruct (N.ltb_spec (len s - len content) (size - len content)); [lia|]. cbn [pbind].
      rewrite skipn_skipn_add. do 2 f_equal. unfold len in *. lia.
    + destruct (N.ltb_spec (len s - len content) (size - len content)); [|lia]. cbn [pbind].
      rewrite needed_new_pos by lia. do 2 f_equal.
      apply andb_false_iff in E as [-> | E]; [lia | apply N.ltb_ge in E; lia].
Qed.

Lemma zstring_enough size s :
  size <= len s ->
  zstring size s =
  POk (utf8_prefix (upto_nul (firstn (N.to_nat size) s))) (skipn (N.to_nat size) s).
Proof. intros H. rewrite zstring_eq. now destruct (N.leb_spec size (len s)); [|lia]. Qed.

Lemma zstring_short_exact size s :
  len s < size ->
  zstring size s =
  PIncomplete (Some (if no_nul s then 1 else size - len s)).
Proof. intros H. rewrite zstring_eq. now destruct (N.leb_spec size (len s)); [lia|]. Qed.

Lemma zstring_short size s :
  len s < size ->
  exists n, zstring size s = PIncomplete (Some n) /\ 1 <= n <= size - len s.
Proof.
  intros H. eexists. split; [apply zstring_short_exact, H|]. destruct (no_nul s); lia.
Qed.



Lemma field_zstring size : field (zstring size) size (fun c => utf8_prefix (upto_nul c)).
Proof.
  intros i. split; intros H.
  - rewrite zstring_enough by exact H. reflexivity.
  - destruct (zstring_short size i H) as (n & -> & Hn). now exists n.
Qed.

Lemma zstring_no_panic size s : zstring size s <> PPanic.
Proof. exact (field_no_panic _ _ _ s (field_zstring size)). Qed.

Lemma zstring_ok_inv size s r rest :
  zstring size s = POk r rest ->
  size <= len s /\
  r = utf8_prefix (upto_nul (firstn (N.to_nat size) s)) /\
  rest = skipn (N.to_nat size) s.
Proof. exact (field_inv _ _ _ s r rest (field_zstring size)). Qed.

Lemma zstring_rest_suffix size s r rest :
  zstring size s = POk r rest -> rest = skipn (N.to_nat size) s /\ size <= len s.
Proof.
  intros H. apply zstring_ok_inv in H. destruct H as (Hle & _ & Hrest). split; assumption.
Qed.

Lemma zstring_result_clean size s r rest :
  zstring size s = POk r rest -> valid_utf8 r = true /\ no_nul r = true /\ len r <= size.
Proof.
  intros H. apply zstring_ok_inv in H. destruct H as (Hle & -> & _).
  split; [apply valid_utf8_prefix|]. split.
  - apply utf8_prefix_no_nul, upto_nul_no_nul.
  - pose proof (utf8_prefix_len_le (upto_nul (firstn (N.to_nat size) s))) as H1.
    pose proof (upto_nul_len_le (firstn (N.to_nat size) s)) as H2.
    pose proof (len_firstn_le (N.to_nat size) s) as H3. lia.
Qed.

Lemma zstring_cases size s :
  (size <= len s /\ exists r, zstring size s = POk r (skipn (N.to_nat size) s)) \/
  (len s < size /\ exists n, zstring size s = PIncomplete (Some n)).
Proof.
  destruct (N.le_gt_cases size (len s)) as [Hle|Hlt].
  - left. split; [exact Hle|]. eexists. apply zstring_enough, Hle.
  - right. split; [exact Hlt|]. destruct (zstring_short size s Hlt) as (n & E & _).
    exists n. exact E.
Qed.

Lemma zstring_put_nopad s rest :
  no_nul s = true -> valid_utf8 s = true -> zstring (len s) (s ++ rest) = POk s rest.
Proof.
  intros Hn Hv. rewrite zstring_enough by (rewrite len_app; lia).
  now rewrite firstn_len_app, skipn_len_app, (upto_nul_id s Hn), (utf8_prefix_valid s Hv).
Qed.
