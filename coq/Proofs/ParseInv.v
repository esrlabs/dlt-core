(* Proofs/ParseInv.v — what a successfully parsed argument tells: how many bytes it consumed ([splits]), a
   lower bound on that number computed from the result ([arg_floor]), and that the result is well-formed
   (Spec/WellFormed.v); then the same for NOAR arguments in a row. *)
From Coq Require Import Lia ZifyBool ZifyN ZifyNat.
From DltV.Model Require Import Bytes Nom Dlt Parse.
From DltV.Spec Require Import WellFormed.
From DltV.Proofs Require Import BytesBasics Fields Codes ParseLemmas Lengths ParsedWfArgs.
Open Scope N_scope.

Lemma ti_decode_wf_coding info t : ti_decode info = Some t -> wf_coding (ti_coding t) = true.
Proof.
  rewrite ti_decode_kind. destruct (ti_kind_decode info) as [k|]; [|discriminate].
  intros [= <-]. apply ti_coding_wf.
Qed.

Lemma dlt_type_info_inv e i t rest :
  dlt_type_info e i = POk t rest -> splits i rest 4 /\ wf_coding (ti_coding t) = true.
Proof.
  unfold dlt_type_info. intros H. apply pbind_ok_inv in H as (info & r & E & H).
  destruct (ti_decode info) as [t'|] eqn:D; [|discriminate]. injection H as <- <-.
  split; [apply (uint_splits E) | eapply ti_decode_wf_coding, D].
Qed.

(* ---------- the least number of bytes an argument was read from ----------
   Type info, and for every text (name, unit, string or raw value) its u16 size field and its bytes. *)
Definition opt_floor (o : option (list byte)) : N := match o with Some s => 2 + len s | None => 0 end.
Definition val_floor (v : value) : N :=
  match v with VString s => 2 + len s | VRaw bs => 2 + len bs | _ => 0 end.
Definition arg_floor (a : argument) : N :=
  4 + opt_floor (a_name a) + opt_floor (a_unit a) + val_floor (a_value a).
Fixpoint args_floor (l : list argument) : N :=
  match l with [] => 0 | a :: r => arg_floor a + args_floor r end.

Lemma args_floor_in a l : In a l -> arg_floor a <= args_floor l.
Proof.
  induction l as [|b l IH]; intros []; cbn [args_floor]; [subst; lia | specialize (IH H); lia].
Qed.

(* ---------- fixed-width values ---------- *)
Lemma dlt_sint_inv e w i v rest : dlt_sint e w i = POk v rest ->
  splits i rest (N.of_nat (type_length_bytes w)) /\ wf_signed_value w v = true /\ val_floor v = 0.
Proof.
  destruct w; cbn [dlt_sint type_length_bytes]; intros H; apply pmap_ok_inv in H as (z & E & ->);
    (split; [eapply sint_splits, E|]); (split; [|reflexivity]); cbn [wf_signed_value];
    exact (sint_in_range _ _ _ _ _ E).
Qed.
Lemma dlt_uint_inv e w i v rest : dlt_uint e w i = POk v rest ->
  splits i rest (N.of_nat (type_length_bytes w)) /\ wf_unsigned_value w v = true /\ val_floor v = 0.
Proof.
  destruct w; cbn [dlt_uint type_length_bytes]; intros H; apply pmap_ok_inv in H as (z & E & ->);
    (split; [eapply uint_splits, E|]); (split; [|reflexivity]); cbn [wf_unsigned_value];
    exact (uint_ltb _ _ _ _ _ E).
Qed.
Lemma dlt_fint_inv e w i v rest : dlt_fint e w i = POk v rest ->
  splits i rest (N.of_nat (float_width_bytes w)) /\ wf_float_value w v = true /\ val_floor v = 0.
Proof.
  destruct w; cbn [dlt_fint float_width_bytes]; intros H; apply pmap_ok_inv in H as (z & E & ->);
    (split; [eapply uint_splits, E|]); (split; [|reflexivity]);
    exact (uint_ltb _ _ _ _ _ E).
Qed.

Lemma dlt_fixed_point_inv e w i fp rest : dlt_fixed_point e w i = POk fp rest ->
  (exists k, splits i rest k) /\ wf_fp w (Some fp) = true.
Proof.
  unfold dlt_fixed_point. intros H. apply pbind_ok_inv in H as (q & r & Eq & H).
  pose proof (uint_ltb _ _ _ _ _ Eq) as Hq.
  destruct w; apply pbind_ok_inv in H as (o & r' & Eo & H); injection H as <- <-;
    (split; [eexists; exact (splits_trans (uint_splits Eq) (sint_splits Eo))|]);
    unfold wf_fp; cbn [fp_quant fp_offset];
    apply andb_true_iff; (split; [exact Hq|]);
    exact (sint_in_range _ _ _ _ _ Eo).
Qed.

Definition numeric_parser (e : endian) (k : ti_kind) : list byte -> pres value :=
  match k with
  | KSigned l => dlt_sint e l
  | KSignedFixed w => dlt_sint e (float_width_to_type_length w)
  | KUnsigned l => dlt_uint e l
  | KUnsignedFixed w => dlt_uint e (float_width_to_type_length w)
  | KFloat w => dlt_fint e w
  | KBool | KString | KRaw => fun _ => PError
  end.
Lemma numeric_parser_inv e k fw wv i v rest :
  numeric_of k = Some (fw, wv) -> numeric_parser e k i = POk v rest ->
  (exists n, splits i rest n) /\ wv v = true /\ val_floor v = 0.
Proof.
  destruct k; intros E H; try discriminate E; injection E as _ <-; cbn [numeric_parser] in H;
    [apply dlt_sint_inv in H | apply dlt_sint_inv in H | apply dlt_uint_inv in H | apply dlt_uint_inv in H
    | apply dlt_fint_inv in H]; destruct H as (S & W & F); (split; [eexists; exact S | split; assumption]).
Qed.

(* ---------- names and units ---------- *)
Lemma dlt_variable_name_inv e i r rest : dlt_variable_name e i = POk r rest ->
  exists k, splits i rest (2 + k) /\ text_ok r k.
Proof.
  unfold dlt_variable_name. intros H. apply pbind_ok_inv in H as (size & i1 & E & H).
  exists size. split.
  - exact (splits_trans (uint_splits E) (zstring_splits H)).
  - eapply zstring_text_ok, H.
Qed.

Lemma opt_name_inv e (c : bool) i (o : option (list byte)) rest :
  (if c then pmap Some (dlt_variable_name e i) else POk None i) = POk o rest ->
  exists k, splits i rest k /\ opt_floor o <= k /\ (k <= 65534 -> name_cond c o None = true).
Proof.
  unfold name_cond. destruct c; intros H.
  - apply pmap_ok_inv in H as (s & Es & ->). apply dlt_variable_name_inv in Es as (k & S & T).
    exists (2 + k). split; [exact S|]. pose proof T as (_ & _ & L). split; [cbn [opt_floor]; lia|].
    intros Hk. cbn [is_some wf_opt]. rewrite (text_ok_wf_text _ _ T) by lia. reflexivity.
  - injection H as <- <-. exists 0. split; [apply splits_refl|]. split; [cbn [opt_floor]; lia | reflexivity].
Qed.

Lemma dlt_variable_name_and_unit_inv e t i nu rest : dlt_variable_name_and_unit e t i = POk nu rest ->
  exists k, splits i rest k /\ opt_floor (fst nu) + opt_floor (snd nu) <= k /\
    (k <= 65534 -> nu_cond (ti_var_info t) (fst nu) (snd nu) = true).
Proof.
  unfold dlt_variable_name_and_unit, nu_cond. destruct (ti_var_info t); intros H.
  - apply pbind_ok_inv in H as (ns & i1 & E1 & H). apply pbind_ok_inv in H as (us & i2 & E2 & H).
    apply pbind_ok_inv in H as (name & i3 & E3 & H). apply pbind_ok_inv in H as (unit & i4 & E4 & H).
    injection H as <- <-. cbn [fst snd is_some opt_floor wf_opt].
    pose proof (zstring_text_ok E3) as T3. pose proof (zstring_text_ok E4) as T4.
    eexists. split.
    + exact (splits_trans (uint_splits E1) (splits_trans (uint_splits E2)
        (splits_trans (zstring_splits E3) (zstring_splits E4)))).
    + pose proof T3 as (_ & _ & L3). pose proof T4 as (_ & _ & L4). split; [lia|]. intros Hk.
      rewrite (text_ok_wf_text _ _ T3), (text_ok_wf_text _ _ T4) by lia. reflexivity.
  - injection H as <- <-. exists 0. split; [apply splits_refl|]. split; [cbn [fst snd opt_floor]; lia | reflexivity].
Qed.

(* ---------- dlt_argument ---------- *)
(* the five numeric branches of dlt_argument are this parser, up to computation *)
Definition numeric_tail (e : endian) (t : type_info) (fw : option float_width)
    (pv : list byte -> pres value) (i : list byte) : pres argument :=
  let* (nu, i1) := dlt_variable_name_and_unit e t i in
  let k fp i2 := (let* (v, rest) := pv i2 in POk (mkArg t (fst nu) (snd nu) fp v) rest) in
  match fw with
  | Some w => let* (fp, i2) := dlt_fixed_point e w i1 in k (Some fp) i2
  | None => k None i1
  end.

Lemma numeric_tail_inv e t fw pv (wv : value -> bool) i a rest :
  (forall i v r, pv i = POk v r -> (exists n, splits i r n) /\ wv v = true /\ val_floor v = 0) ->
  numeric_tail e t fw pv i = POk a rest ->
  exists n, splits i rest n /\ a_ti a = t /\
    opt_floor (a_name a) + opt_floor (a_unit a) + val_floor (a_value a) <= n /\
    wf_fp_opt fw (a_fp a) && wv (a_value a) = true /\
    (n <= 65534 -> nu_cond (ti_var_info t) (a_name a) (a_unit a) = true).
Proof.
  intros Hp H. unfold numeric_tail in H. apply pbind_ok_inv in H as (nu & i1 & En & H).
  apply dlt_variable_name_and_unit_inv in En as (kn & Sn & Fn & Wn). cbv beta zeta in H.
  assert (T : exists fp i2 kf, splits i1 i2 kf /\ wf_fp_opt fw fp = true /\
              (let* (v, r) := pv i2 in POk (mkArg t (fst nu) (snd nu) fp v) r) = POk a rest).
  { destruct fw as [w|].
    - apply pbind_ok_inv in H as (fp & i2 & Ef & H). apply dlt_fixed_point_inv in Ef as ((kf & Sf) & Wf).
      exists (Some fp), i2, kf. split; [exact Sf|]. split; [exact Wf | exact H].
    - exists None, i1, 0. split; [apply splits_refl|]. split; [reflexivity | exact H]. }
  destruct T as (fp & i2 & kf & Sf & Wf & T). apply pbind_ok_inv in T as (v & r & Ev & T).
  injection T as <- <-. apply Hp in Ev as ((kv & Sv) & Wv & Fv). cbn [a_ti a_name a_unit a_fp a_value].
  exists (kn + (kf + kv)). split; [exact (splits_trans Sn (splits_trans Sf Sv))|].
  split; [reflexivity|]. split; [lia|]. split; [now rewrite Wf, Wv|]. intros Hn. apply Wn. lia.
Qed.

Theorem dlt_argument_inv e i a rest : dlt_argument e i = POk a rest ->
  exists n, splits i rest n /\ arg_floor a <= n /\ arg_valid a = true /\ (n <= 65535 -> wf_arg a = true).
Proof.
  unfold dlt_argument, arg_floor. intros H. apply pbind_ok_inv in H as (t & i0 & Et & H).
  apply dlt_type_info_inv in Et as [St Hc].
  destruct (numeric_of (ti_kind_of t)) as [[fw wv]|] eqn:N.
  - assert (T : numeric_tail e t fw (numeric_parser e (ti_kind_of t)) i0 = POk a rest)
      by (revert H N; destruct (ti_kind_of t); intros H N; try discriminate N; injection N as <- _; exact H).
    apply (numeric_tail_inv _ _ _ _ wv) in T as (n & S & <- & F & W & Wn);
      [|intros ? ? ?; apply (numeric_parser_inv _ _ _ _ _ _ _ N)].
    apply andb_true_iff in W as [Wf Wv].
    exists (4 + n). split; [exact (splits_trans St S)|]. split; [lia|].
    split; [exact (numeric_valid a fw wv N Wv)|]. intros Hn.
    rewrite (wf_arg_numeric a fw wv N), Hc, Wf, Wv, Wn by lia. reflexivity.
  - assert (R : forall name v k kv i2,
               a = mkArg t name None None v -> splits i0 i2 k -> splits i2 rest kv ->
               opt_floor name + val_floor v <= k + kv ->
               (k <= 65534 -> name_cond (ti_var_info t) name None = true) ->
               (4 + (k + kv) <= 65535 -> named_value (ti_kind_of t) v = true) ->
               arg_valid a = true ->
               exists n, splits i rest n /\
                 4 + opt_floor (a_name a) + opt_floor (a_unit a) + val_floor (a_value a) <= n /\
                 arg_valid a = true /\ (n <= 65535 -> wf_arg a = true)).
    { intros name v k kv i2 -> Sk Sv F Wn Wv V. cbn [a_name a_unit a_value opt_floor].
      exists (4 + (k + kv)). split; [exact (splits_trans St (splits_trans Sk Sv))|].
      split; [lia|]. split; [exact V|]. intros Hn.
      rewrite (wf_arg_named (mkArg t name None None v) N). cbn [a_ti a_name a_unit a_fp a_value].
      rewrite Hc, Wn, Wv by lia. reflexivity. }
    revert H N R. destruct (ti_kind_of t) eqn:K; intros H N R; try discriminate N.
    + (* bool *)
      apply pbind_ok_inv in H as (name & i2 & En & H). apply pbind_ok_inv in H as (b & r & Eb & H).
      injection H as <- <-. apply opt_name_inv in En as (k & Sn & Fn & Wn).
      pose proof (u8_value Eb) as Hb. apply N.ltb_lt in Hb.
      apply (R name (VBool b) k 1 i2 eq_refl Sn (u8_splits Eb));
        [cbn [val_floor]; lia | exact Wn | intros _; exact Hb | unfold arg_valid; cbn [a_ti a_value]; now rewrite K].
    + (* string *)
      apply pbind_ok_inv in H as (size & i2 & Es & H). apply pbind_ok_inv in H as (name & i3 & En & H).
      apply pbind_ok_inv in H as (s & r & Ez & H). injection H as <- <-.
      apply opt_name_inv in En as (k & Sn & Fn & Wn).
      pose proof (zstring_text_ok Ez) as Ts. pose proof Ts as (_ & _ & Ls).
      pose proof (splits_trans (uint_splits Es) Sn) as S2.
      apply (R name (VString s) (N.of_nat 2 + k) size i3 eq_refl S2 (zstring_splits Ez));
        [cbn [val_floor]; lia | intros; apply Wn; lia | | unfold arg_valid; cbn [a_ti a_value]; now rewrite K].
      intros Hn. apply (text_ok_wf_text _ _ Ts). lia.
    + (* raw *)
      apply pbind_ok_inv in H as (cnt & i2 & Es & H). apply pbind_ok_inv in H as (name & i3 & En & H).
      apply pbind_ok_inv in H as (bs & r & Eb & H). injection H as <- <-.
      apply opt_name_inv in En as (k & Sn & Fn & Wn). apply take_ok_inv in Eb as [Sb ->].
      assert (Lf : len (firstn (N.to_nat cnt) i3) = cnt) by (apply len_firstn_N, (splits_le Sb)).
      pose proof (splits_trans (uint_splits Es) Sn) as S2.
      apply (R name _ (N.of_nat 2 + k) cnt i3 eq_refl S2 Sb);
        [cbn [val_floor]; lia | intros; apply Wn; lia | | unfold arg_valid; cbn [a_ti a_value]; now rewrite K].
      intros Hn. apply N.leb_le. lia.
Qed.

(* ---------- count ---------- *)
Definition args_facts (n : nat) (room : N) (args : list argument) : Prop :=
  length args = n /\ args_floor args <= room /\ (forall a, In a args -> arg_valid a = true) /\
  (room <= 65535 -> forallb wf_arg args = true).

Lemma count_arguments_inv e n i args rest :
  count (dlt_argument e) n i = POk args rest -> args_facts n (len i) args.
Proof.
  unfold args_facts. revert i args rest. induction n as [|n IH]; intros i args rest H; cbn [count] in H.
  - injection H as <- <-. split; [reflexivity|]. split; [apply N.le_0_l|]. split; [intros a [] | reflexivity].
  - apply pbind_ok_inv in H as (a & r & Ea & H). apply pbind_ok_inv in H as (l & r' & El & H).
    injection H as <- <-. apply dlt_argument_inv in Ea as (k & S & F1 & V1 & W1). apply splits_len in S.
    apply IH in El as (Hl & F2 & V2 & W2).
    split; [cbn [length]; now rewrite Hl|]. split; [cbn [args_floor]; lia|]. split.
    + intros a' [<-|Hin]; [exact V1 | exact (V2 a' Hin)].
    + intros Hi. cbn [forallb]. rewrite W1, W2 by lia. reflexivity.
Qed.
