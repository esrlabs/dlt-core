(* Proofs/LayoutTests.v — C02: the reference codec of Spec/Layout.v and the model on concrete inputs.  That
   the two decoders agree on them is an instance of spec_decode_correct; what is evaluated in the kernel is
   what the reference codec says about them (verdict classes, consumed lengths, decoded fields), so that the
   agreement is seen not to be an agreement on rejections only. *)
From DltV.Model Require Import Bytes Utf8 Nom Dlt Parse.
From DltV.Spec Require Import WellFormed Layout.
From DltV.Proofs Require Import LayoutVerdict LayoutDecode LayoutEncode.
Open Scope N_scope.

Definition model_verdict (sh : bool) (bs : list byte) : verdict := verdict_of (dlt_message bs None sh) bs.
Definition agree_on (sh : bool) (l : list (list byte)) : Prop :=
  map (model_verdict sh) l = map (spec_decode sh) l.
Lemma agree_on_all sh l : agree_on sh l.
Proof. apply map_ext. intros bs. apply spec_decode_correct. Qed.
(* 0 message, 1 incomplete, 2 reject *)
Definition class (v : verdict) : N := match v with VMessage _ _ => 0 | VIncomplete => 1 | VReject => 2 end.
Definition consumed_of (v : verdict) : N := match v with VMessage _ c => c | _ => 0 end.

Definition truncations (bs : list byte) : list (list byte) := map (fun k => firstn k bs) (seq 0 (S (length bs))).
Definition set_nth (bs : list byte) (i : nat) (b : byte) : list byte := firstn i bs ++ b :: skipn (S i) bs.
(* at every position: 0x00, 0xff, +1, and the byte with bit 4 flipped *)
Definition mutations (bs : list byte) : list (list byte) :=
  flat_map (fun i =>
    let b := nth i bs x00 in
    [set_nth bs i x00; set_nth bs i xff; set_nth bs i (n2b (b2n b + 1)); set_nth bs i (n2b (N.lxor (b2n b) 16))])
    (seq 0 (length bs)).
Definition deletions (bs : list byte) : list (list byte) :=
  map (fun i => firstn i bs ++ skipn (S i) bs) (seq 0 (length bs)).

(* ---------- sample values ---------- *)
Definition A := x41. Definition B := x42.
Definition ti (k : ti_kind) (v : bool) : type_info := mkTI k SAscii v false.
Definition nm : option (list byte) := Some [x6e; x61].           (* "na" *)
Definition un : option (list byte) := Some [x6d; xc3; xa9].       (* "mé" *)

Definition args_plain : list argument :=
  [ mkArg (ti KBool false) None None None (VBool 1);
    mkArg (ti (KUnsigned BL8) false) None None None (VU8 200);
    mkArg (ti (KUnsigned BL16) false) None None None (VU16 513);
    mkArg (ti (KUnsigned BL32) false) None None None (VU32 305419896);
    mkArg (ti (KUnsigned BL64) false) None None None (VU64 1311768467463790320);
    mkArg (ti (KUnsigned BL128) false) None None None (VU128 (2 ^ 127 + 5));
    mkArg (ti (KSigned BL8) false) None None None (VI8 (-3));
    mkArg (ti (KSigned BL16) false) None None None (VI16 (-300));
    mkArg (ti (KSigned BL32) false) None None None (VI32 (-70000));
    mkArg (ti (KSigned BL64) false) None None None (VI64 (-5000000000));
    mkArg (ti (KSigned BL128) false) None None None (VI128 (- 2 ^ 100));
    mkArg (ti (KFloat W32) false) None None None (VF32 1078530011);
    mkArg (ti (KFloat W64) false) None None None (VF64 4614256656552045848);
    mkArg (mkTI KString SUtf8 false true) None None None (VString [x68; xc3; xa9]);
    mkArg (ti KRaw false) None None None (VRaw [x00; xff; x10]) ].
Definition args_named : list argument :=
  [ mkArg (ti KBool true) nm None None (VBool 0);
    mkArg (ti (KUnsigned BL16) true) nm un None (VU16 65535);
    mkArg (ti (KSigned BL32) true) nm (Some []) None (VI32 (-1));
    mkArg (ti (KFloat W32) true) (Some []) un None (VF32 0);
    mkArg (ti (KSignedFixed W32) true) nm un (Some (mkFP 1065353216 (FI32 (-7)))) (VI32 100);
    mkArg (ti (KSignedFixed W64) false) None None (Some (mkFP 1 (FI64 (-(2 ^ 40))))) (VI64 (-9));
    mkArg (ti (KUnsignedFixed W32) false) None None (Some (mkFP 2 (FI32 7))) (VU32 9);
    mkArg (ti (KUnsignedFixed W64) true) nm un (Some (mkFP 3 (FI64 8))) (VU64 (2 ^ 63));
    mkArg (mkTI KString (SReserved 5) true false) nm None None (VString []);
    mkArg (ti KRaw true) nm None None (VRaw []) ].

Definition mk (e : endian) (ecu : option (list byte)) (ses tms : option N) (p : payload)
    (x : option ext_config) (sh : option storage_header) : message :=
  message_new (mkCfg 1 7 e ecu ses tms p x) sh.
Definition xlog := Some (mkExtCfg (MLog Info) [A; B] [B; A; A; B]).
Definition xnw := Some (mkExtCfg (MNwTrace NCan) [A] []).
Definition xctl := Some (mkExtCfg (MControl CResponse) [A; B; A; B] [B]).
Definition xunk := Some (mkExtCfg (MUnknown 5 9) [A] [B]).
Definition st0 := Some (mkSH (mkTS 1700000000 999999) [x45; x43; x55]).

Definition m_plain_le := mk LE None None None (PVerbose args_plain) xlog None.
Definition m_plain_be := mk BE (Some [A; B; A]) (Some 66051) (Some 4294967295) (PVerbose args_plain) xlog None.
Definition m_named_le := mk LE (Some [A]) None (Some 5) (PVerbose args_named) xlog st0.
Definition m_named_be := mk BE None (Some 9) None (PVerbose args_named) xlog st0.
Definition m_nv_noext := mk LE None None None (PNonVerbose 3735928559 [x01; x02; x03]) None None.
Definition m_nv_ext_be := mk BE (Some [A; B; A; B]) None None (PNonVerbose 258 []) xunk st0.
Definition m_ctl := mk LE None (Some 1) None (PControl CResponse [x13; x00]) xctl None.
Definition m_ctl_unk := mk BE None None None (PControl (CUnknown 19) []) xctl st0.
Definition m_nw_le := mk LE None None None (PNetworkTrace [[x01; x02]; []; [xff]]) xnw None.
Definition m_nw_be := mk BE (Some []) (Some 0) (Some 0) (PNetworkTrace [[x01; x02]; [xaa; xbb; xcc]]) xnw st0.
Definition m_empty_verbose := mk LE None None None (PVerbose []) xlog None.

Definition samples : list message :=
  [m_plain_le; m_plain_be; m_named_le; m_named_be; m_nv_noext; m_nv_ext_be; m_ctl; m_ctl_unk;
   m_nw_le; m_nw_be; m_empty_verbose].

(* ---------- encoder ---------- *)
Example samples_wf : forallb wf_message samples = true.
Proof. vm_compute. reflexivity. Qed.
Example enc_samples : map message_bytes samples = map spec_encode samples.
Proof.
  apply map_ext_in. intros m I. apply spec_encode_correct.
  pose proof samples_wf as W. rewrite forallb_forall in W. exact (W m I).
Qed.

(* ---------- decoder on canonical encodings ---------- *)
Definition has_sh (m : message) : bool := present (m_storage m).
Example dec_samples_own_mode :
  map (fun m => spec_decode (has_sh m) (spec_encode m)) samples
  = map (fun m => VMessage m (len (spec_encode m))) samples.
Proof. vm_compute. reflexivity. Qed.
Example dec_samples_model_own_mode :
  map (fun m => model_verdict (has_sh m) (message_bytes m)) samples
  = map (fun m => VMessage m (len (message_bytes m))) samples.
Proof.
  pose proof samples_wf as W. rewrite forallb_forall in W.
  transitivity (map (fun m => spec_decode (has_sh m) (spec_encode m)) samples).
  - apply map_ext_in. intros m I. unfold model_verdict. rewrite spec_decode_correct.
    now rewrite (spec_encode_correct m (W m I)).
  - rewrite dec_samples_own_mode. apply map_ext_in. intros m I. now rewrite (spec_encode_correct m (W m I)).
Qed.
Example dec_samples_sh : agree_on true (map message_bytes samples).
Proof. apply agree_on_all. Qed.
Example dec_samples_nosh : agree_on false (map message_bytes samples).
Proof. apply agree_on_all. Qed.
(* followed by another message / by garbage: consumed stops at the declared end *)
Example dec_followed :
  let bs := message_bytes m_named_le ++ message_bytes m_ctl_unk ++ [xde; xad] in
  model_verdict true bs = spec_decode true bs /\
  spec_decode true bs = VMessage m_named_le (len (message_bytes m_named_le)).
Proof. split; [apply spec_decode_correct | vm_compute; reflexivity]. Qed.

(* ---------- truncations: every cut position ---------- *)
Example trunc_plain_le : agree_on false (truncations (message_bytes m_plain_le)).
Proof. apply agree_on_all. Qed.
Example trunc_plain_be : agree_on false (truncations (message_bytes m_plain_be)).
Proof. apply agree_on_all. Qed.
Example trunc_named_le_sh : agree_on true (truncations (message_bytes m_named_le)).
Proof. apply agree_on_all. Qed.
Example trunc_named_be_sh : agree_on true (truncations (message_bytes m_named_be)).
Proof. apply agree_on_all. Qed.
Example trunc_nv : agree_on false (truncations (message_bytes m_nv_noext)).
Proof. apply agree_on_all. Qed.
Example trunc_nv_ext_sh : agree_on true (truncations (message_bytes m_nv_ext_be)).
Proof. apply agree_on_all. Qed.
Example trunc_ctl : agree_on false (truncations (message_bytes m_ctl)).
Proof. apply agree_on_all. Qed.
Example trunc_nw_sh : agree_on true (truncations (message_bytes m_nw_be)).
Proof. apply agree_on_all. Qed.
(* the classes seen along the truncations of one message: incomplete ... incomplete, message *)
Example trunc_classes :
  map (fun bs => class (spec_decode false bs)) (truncations (message_bytes m_ctl))
  = repeat 1 (length (message_bytes m_ctl)) ++ [0].
Proof. vm_compute. reflexivity. Qed.

(* ---------- mutations: 4 replacement bytes at every position, byte deletions ---------- *)
Example mut_plain_le : agree_on false (mutations (message_bytes m_plain_le)).
Proof. apply agree_on_all. Qed.
Example mut_plain_be : agree_on false (mutations (message_bytes m_plain_be)).
Proof. apply agree_on_all. Qed.
Example mut_named_le_sh : agree_on true (mutations (message_bytes m_named_le)).
Proof. apply agree_on_all. Qed.
Example mut_named_be_sh : agree_on true (mutations (message_bytes m_named_be)).
Proof. apply agree_on_all. Qed.
Example mut_named_be_nosh : agree_on false (mutations (skipn 16 (message_bytes m_named_be))).
Proof. apply agree_on_all. Qed.
Example mut_nv : agree_on false (mutations (message_bytes m_nv_noext)).
Proof. apply agree_on_all. Qed.
Example mut_nv_ext_sh : agree_on true (mutations (message_bytes m_nv_ext_be)).
Proof. apply agree_on_all. Qed.
Example mut_ctl : agree_on false (mutations (message_bytes m_ctl)).
Proof. apply agree_on_all. Qed.
Example mut_ctl_unk_sh : agree_on true (mutations (message_bytes m_ctl_unk)).
Proof. apply agree_on_all. Qed.
Example mut_nw_le : agree_on false (mutations (message_bytes m_nw_le)).
Proof. apply agree_on_all. Qed.
Example mut_nw_be_sh : agree_on true (mutations (message_bytes m_nw_be)).
Proof. apply agree_on_all. Qed.
Example del_named_le_sh : agree_on true (deletions (message_bytes m_named_le)).
Proof. apply agree_on_all. Qed.
Example del_plain_be : agree_on false (deletions (message_bytes m_plain_be)).
Proof. apply agree_on_all. Qed.
(* the mutations are not all of one class *)
(* a class occurs among the verdicts of a list of inputs as soon as one input, given by its position, has it *)
Lemma existsb_nth_map {A} (f : A -> N) l c i d :
  (i < length l)%nat -> f (nth i l d) = c -> existsb (N.eqb c) (map f l) = true.
Proof.
  intros L E. apply existsb_exists. exists (f (nth i l d)).
  split; [apply in_map, nth_In, L | rewrite E; apply N.eqb_refl].
Qed.
Example mut_classes_mixed :
  let cs := map (fun bs => class (spec_decode true bs)) (mutations (message_bytes m_named_le)) in
  (existsb (N.eqb 0) cs && existsb (N.eqb 1) cs && existsb (N.eqb 2) cs) = true.
Proof.
  (* one witness per class: the mutations number 16, 0 and 76 *)
  cbv zeta. set (f := fun bs => class (spec_decode true bs)). set (l := mutations (message_bytes m_named_le)).
  rewrite (existsb_nth_map f l 0 16 []), (existsb_nth_map f l 1 0 []), (existsb_nth_map f l 2 76 [])
    by (try apply Nat.ltb_lt; vm_compute; reflexivity).
  reflexivity.
Qed.

(* ---------- storage header: junk, partial markers, short buffers ---------- *)
Definition D := x44. Definition L := x4c. Definition T := x54.
Definition body := skipn 16 (message_bytes m_ctl_unk).
Definition shdr := firstn 16 (message_bytes m_ctl_unk).
Example sh_junk :
  agree_on true
    [ [xaa; xbb; xcc] ++ shdr ++ body;
      [D; L; T; x00] ++ shdr ++ body;                (* almost a marker *)
      [D; L; D; L; T] ++ skipn 3 shdr ++ body;       (* marker overlapping junk "DLDLT\x01" *)
      [D; L; T] ++ shdr ++ body;
      repeat x00 20; repeat D 15; repeat D 16;        (* no marker at all *)
      [D; L; T; x01];                                  (* marker but < 16 bytes in the buffer *)
      repeat xaa 13 ++ [D; L; T; x01];                 (* >= 16 bytes, marker at the very end *)
      repeat xaa 5 ++ firstn 15 shdr;                  (* storage header one byte short *)
      repeat xaa 5 ++ shdr;                            (* storage header, nothing behind *)
      repeat xaa 5 ++ shdr ++ firstn 3 body;
      shdr ++ shdr ++ body;                            (* a storage header where the message should be *)
      body ].                                          (* no storage header at all *)
Proof. apply agree_on_all. Qed.
Example sh_junk_consumed :
  spec_decode true ([xaa; xbb; xcc] ++ shdr ++ body ++ [x99])
  = VMessage m_ctl_unk (3 + len (message_bytes m_ctl_unk)).
Proof. vm_compute. reflexivity. Qed.
Example sh_no_marker_incomplete :
  map (fun bs => class (spec_decode true bs)) [repeat x00 20; [D; L; T; x01]; repeat xaa 13 ++ [D; L; T; x01]]
  = [1; 1; 1].
Proof. vm_compute. reflexivity. Qed.
(* storage ECU id: NUL-padded, NUL in the middle, invalid UTF-8, and the seconds/microseconds byte order *)
Example sh_ids :
  agree_on true
    [ [D; L; T; x01; x01; x02; x03; x04; x05; x06; x07; x08; A; x00; B; x00] ++ body;
      [D; L; T; x01; x01; x02; x03; x04; x05; x06; x07; x08; x00; x00; x00; x00] ++ body;
      [D; L; T; x01; x01; x02; x03; x04; x05; x06; x07; x08; A; xff; B; A] ++ body;
      [D; L; T; x01; x01; x02; x03; x04; x05; x06; x07; x08; xc3; xa9; xc3; x00] ++ body ].
Proof. apply agree_on_all. Qed.
Example sh_fields :
  match spec_decode true ([D; L; T; x01; x01; x02; x03; x04; x05; x06; x07; x08; A; xff; B; A] ++ body) with
  | VMessage m _ => m_storage m = Some (mkSH (mkTS 67305985 134678021) [A])
  | _ => False
  end.
Proof. vm_compute. reflexivity. Qed.

(* ---------- standard / extended header: every HTYP byte, every MSIN byte, lengths ---------- *)
Definition with_htyp (h : N) : list byte :=
  n2b h :: [x07; x00; x20] ++ [A; x00; x00; x00; x00; x00; x00; x02; x00; x00; x00; x03]
  ++ [x41; x02; A; B; x00; x00; B; xff; x00; x00] ++ [x10; x00; x00; x00; x01; x10; x00; x00; x00; x00; xee].
Example all_htyp : agree_on false (map with_htyp (map N.of_nat (seq 0 256))).
Proof. apply agree_on_all. Qed.
Definition with_msin (v : N) : list byte :=
  [x21; x00; x00; x17; n2b v; x01; A; x00; x00; x00; B; x00; x00; x00;
   x10; x00; x00; x00; x01; x02; x03; x04; x05].
Example all_msin : agree_on false (map with_msin (map N.of_nat (seq 0 256))).
Proof. apply agree_on_all. Qed.
Example all_msin_be : agree_on false (map (fun v => set_nth (with_msin v) 0 x23) (map N.of_nat (seq 0 256))).
Proof. apply agree_on_all. Qed.
(* LEN from 0 to 40 on a 30-byte buffer with all optional fields and extended header (26 header bytes) *)
Definition with_len (v : N) : list byte :=
  [x3d; x00; x00; n2b v] ++ [A; x00; x00; x00; x00; x00; x00; x02; x00; x00; x00; x03]
  ++ [x40; x00; A; B; x00; x00; B; xff; x00; x00] ++ [x01; x02; x03; x04].
Example all_len : agree_on false (map with_len (map N.of_nat (seq 0 41))).
Proof. apply agree_on_all. Qed.
Example all_len_classes :
  map (fun v => class (spec_decode false (with_len v))) [0; 25; 26; 29; 30; 31]
  = [2; 2; 2; 2; 0; 1].
Proof. vm_compute. reflexivity. Qed.
(* LEN too small is a rejection only once the standard header is complete (rules M2, M3) *)
Example short_vs_bad_len :
  agree_on false (truncations (with_len 3)) /\
  map (fun bs => class (spec_decode false bs)) (truncations (with_len 3))
  = repeat 1 16 ++ repeat 2 15.
Proof. split; [apply agree_on_all | vm_compute; reflexivity]. Qed.
(* control payload of 0 bytes, non-verbose payload of 0..4 bytes *)
Example small_payloads :
  agree_on false
    [ [x21; x00; x00; x0e; x26; x00; A; x00; x00; x00; B; x00; x00; x00];
      [x21; x00; x00; x0f; x26; x00; A; x00; x00; x00; B; x00; x00; x00; x05];
      [x20; x00; x00; x04]; [x20; x00; x00; x07; x01; x02; x03]; [x20; x00; x00; x08; x01; x02; x03; x04];
      [x22; x00; x00; x08; x01; x02; x03; x04];
      [x21; x00; x00; x0e; x20; x00; A; x00; x00; x00; B; x00; x00; x00];
      [x21; x00; x00; x11; x20; x00; A; x00; x00; x00; B; x00; x00; x00; x01; x02; x03] ].
Proof. apply agree_on_all. Qed.

(* ---------- arguments: counts, lengths, dialect ---------- *)
(* [pl]: payload of a verbose LE log message with NOAR = n *)
Definition vmsg (e : endian) (n : N) (pl : list byte) : list byte :=
  [match e with LE => x21 | BE => x23 end; x00] ++ put_uint BE 2 (14 + len pl)
  ++ [x41; n2b n; A; x00; x00; x00; B; x00; x00; x00] ++ pl.
Definition bool_arg := [x10; x00; x00; x00; x01].
Example noar_vs_args :
  agree_on false
    [ vmsg LE 0 (bool_arg ++ bool_arg); vmsg LE 1 (bool_arg ++ bool_arg); vmsg LE 2 (bool_arg ++ bool_arg);
      vmsg LE 3 (bool_arg ++ bool_arg); vmsg LE 255 (bool_arg ++ bool_arg);
      vmsg LE 1 [x10; x00; x00; x00]; vmsg LE 1 [x10; x00; x00]; vmsg LE 1 [];
      vmsg LE 2 (bool_arg ++ [x10]) ].
Proof. apply agree_on_all. Qed.
(* an argument that would fit in the buffer but not in the declared payload is rejected *)
Example arg_crosses_declared_end :
  let bs := vmsg LE 1 [x10; x00; x00; x00] ++ [x01; x02] in
  model_verdict false bs = spec_decode false bs /\ spec_decode false bs = VReject.
Proof. split; [apply spec_decode_correct | vm_compute; reflexivity]. Qed.
(* strings: size 0, size 1, no terminator, interior NUL, invalid UTF-8, size larger than the payload *)
Example string_dialect :
  agree_on false
    [ vmsg LE 1 [x00; x02; x00; x00; x00; x00];
      vmsg LE 1 [x00; x02; x00; x00; x01; x00; x00];
      vmsg LE 1 [x00; x02; x00; x00; x03; x00; A; B; A];
      vmsg LE 1 [x00; x02; x00; x00; x04; x00; A; x00; B; x00];
      vmsg LE 1 [x00; x02; x00; x00; x04; x00; A; xff; B; x00];
      vmsg LE 1 [x00; x02; x00; x00; x04; x00; xe2; x82; xac; x00];
      vmsg LE 1 [x00; x02; x00; x00; x04; x00; xe2; x82; x00; x00];
      vmsg LE 1 [x00; x02; x00; x00; x09; x00; A; B; x00];
      vmsg BE 1 [x00; x00; x02; x00; x00; x03; A; B; x00];
      vmsg BE 1 [x00; x00; x02; x00; x03; x00; A; B; x00];
      (* with a name of size 0 / size 2 / a name longer than the payload *)
      vmsg LE 1 [x00; x0a; x00; x00; x02; x00; x00; x00; A; x00];
      vmsg LE 1 [x00; x0a; x00; x00; x02; x00; x02; x00; B; x00; A; x00];
      vmsg LE 1 [x00; x0a; x00; x00; x02; x00; xff; xff; B; x00; A; x00] ].
Proof. apply agree_on_all. Qed.
(* type info: bool with TYLE 0..15, unused bits, ARAY, two type bits, bad widths, all SCOD, FIXP on float *)
Definition ti_msg (w : N) : list byte := vmsg LE 1 (put_uint LE 4 w ++ repeat x01 24).
Example ti_dialect :
  agree_on false
    (map ti_msg
       ([16; 17; 18; 31; 16 + 16384; 16 + 2 ^ 18; 16 + 2 ^ 31; 16 + 256; 16 + 32; 0; 15; 4096;
         32; 33; 34; 35; 36; 37; 38; 32 + 4096 + 2; 32 + 4096 + 3; 32 + 4096 + 4; 32 + 4096 + 5;
         64; 65; 69; 70; 64 + 4096 + 3; 64 + 4096 + 4; 64 + 4096 + 1;
         128; 130; 131; 132; 133; 131 + 4096; 512; 512 + 7; 512 + 4096; 1024; 1024 + 9; 1024 + 512;
         16 + 2048; 35 + 2048; 131 + 2048; 512 + 2048; 1024 + 2048; 16 + 8192]
        ++ map (fun s => 512 + 32768 * s) [0; 1; 2; 3; 4; 5; 6; 7])).
Proof. apply agree_on_all. Qed.
Example ti_dialect_classes :
  map (fun w => class (spec_decode false (ti_msg w))) [16; 17; 16 + 16384; 16 + 2 ^ 31; 16 + 256; 48; 32; 35; 131 + 4096]
  = [0; 0; 0; 0; 2; 2; 2; 0; 0].
Proof. vm_compute. reflexivity. Qed.
(* every type-info word below 2^11 (all kind/width combinations) and with VARI/FIXP/TRAI/STRU on top *)
Example ti_sweep_small :
  agree_on false (map ti_msg (map N.of_nat (seq 0 2048))) /\
  agree_on false (map (fun w => ti_msg (w * 16 + 3)) (map N.of_nat (seq 0 2048))).
Proof. split; apply agree_on_all. Qed.
(* ids in the extended header: padded, NUL first, invalid UTF-8 *)
Example ext_ids :
  agree_on false
    [ [x21; x00; x00; x0e; x20; x00; A; B; x00; x00; x00; A; B; A];
      [x21; x00; x00; x0e; x20; x00; xc3; xa9; xc3; xa9; xc3; xa9; xc3; x28];
      [x21; x00; x00; x0e; x20; x00; xff; A; A; A; A; x00; A; A] ].
Proof. apply agree_on_all. Qed.
