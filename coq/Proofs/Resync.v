(* Proofs/Resync.v — C06: parsing with storage headers skips pattern-free junk in front of a
   storage header; a stream of messages separated by junk is recovered completely and in order. *)
From Coq Require Import Lia ZifyBool ZifyN ZifyNat.
From DltV.Model Require Import Bytes Nom Dlt Parse.
From DltV.Proofs Require Import BytesBasics ParseLemmas Search Roundtrip.
Open Scope N_scope.

(* ---------- junk in front of a storage header ---------- *)
(* the shift reported by dlt_storage_header is dropped by dlt_message *)
Lemma dlt_message_after_shift s k k' a f :
  dlt_message_after (Some (s, k)) a f = dlt_message_after (Some (s, k')) a f.
Proof. reflexivity. Qed.

Theorem junk_skipped junk x f :
  (forall j, ~ pattern_at junk j) -> (exists r, x = pat_DLT1 ++ r) -> 16 <= len x ->
  dlt_message (junk ++ x) f true = dlt_message x f true.
Proof.
  intros Hj (r & ->) Hlen. apply find_pattern_none in Hj.
  unfold dlt_message. rewrite !dlt_storage_header_eq.
  rewrite (forward_junk junk r Hj).
  pose proof (forward_junk [] r eq_refl) as F0. cbn [app] in F0. rewrite F0.
  destruct (N.ltb_spec (len (junk ++ pat_DLT1 ++ r)) 16) as [H|_]; [rewrite len_app in H; lia|].
  destruct (N.ltb_spec (len (pat_DLT1 ++ r)) 16) as [H|_]; [lia|].
  now rewrite !pbind_pmap.
Qed.

(* pattern-free leftover: nothing is found; the parser asks for more *)
Theorem junk_only junk f :
  (forall j, ~ pattern_at junk j) ->
  dlt_message junk f true = if len junk <? 16 then PIncomplete None else PIncomplete (Some 1).
Proof.
  intros Hj. apply forward_none_iff in Hj.
  unfold dlt_message. rewrite dlt_storage_header_eq, Hj.
  destruct (len junk <? 16); reflexivity.
Qed.

(* ---------- a stream with junk between the messages ---------- *)
Definition piece := (list byte * list byte * parsed_message)%type.   (* junk, message bytes, its parse *)

Fixpoint stream_bytes (l : list piece) (tail : list byte) : list byte :=
  match l with
  | [] => tail
  | (j, x, _) :: r => j ++ x ++ stream_bytes r tail
  end.

Definition good_piece (f : option processed_filter) (p : piece) : Prop :=
  let '(j, x, pm) := p in
  (forall k, ~ pattern_at j k) /\ (exists r, x = pat_DLT1 ++ r) /\
  (forall tail, dlt_message (x ++ tail) f true = POk pm tail).

Lemma dlt_message_ok_len16 x f pm rest : dlt_message x f true = POk pm rest -> 16 <= len x.
Proof.
  unfold dlt_message. rewrite dlt_storage_header_eq.
  destruct (N.ltb_spec (len x) 16) as [|H]; [discriminate | intros _; exact H].
Qed.

Theorem stream_recovered f l jn fuel :
  Forall (good_piece f) l -> (forall k, ~ pattern_at jn k) -> (length l < fuel)%nat ->
  parse_all fuel (stream_bytes l jn) f true = (map snd l, jn).
Proof.
  intros Hl Hjn. revert fuel. induction Hl as [|[[j x] pm] l (Hj & (r & Hx) & Hparse) Hl IH]; intros fuel Hf.
  - destruct fuel as [|fuel]; [cbn in Hf; lia|]. cbn [stream_bytes parse_all map].
    rewrite (junk_only jn f Hjn). now destruct (len jn <? 16).
  - destruct fuel as [|fuel]; [cbn in Hf; lia|]. cbn [stream_bytes parse_all map snd].
    rewrite junk_skipped; [|exact Hj| |].
    + rewrite Hparse. rewrite IH by (cbn [length] in Hf; lia). reflexivity.
    + exists (r ++ stream_bytes l jn). rewrite Hx. now rewrite <- app_assoc.
    + pose proof (dlt_message_ok_len16 _ _ _ _ (Hparse [])) as H16. rewrite app_nil_r in H16.
      rewrite len_app. lia.
Qed.

(* ---------- the same for serialised messages, given the round trip (C01, and C09 for a filter) as a
   hypothesis: [res m] is what the parser returns for the bytes of m ---------- *)
Fixpoint messages_bytes (l : list (list byte * message)) (tail : list byte) : list byte :=
  match l with
  | [] => tail
  | (j, m) :: r => j ++ message_bytes m ++ messages_bytes r tail
  end.

Lemma messages_bytes_stream res l tail :
  messages_bytes l tail = stream_bytes (map (fun p => (fst p, message_bytes (snd p), res (snd p))) l) tail.
Proof. induction l as [|[j m] l IH]; [reflexivity|]. cbn [messages_bytes map stream_bytes fst snd]. now rewrite IH. Qed.

Theorem messages_recovered f (res : message -> parsed_message) l jn fuel :
  (forall j m, In (j, m) l ->
     (forall k, ~ pattern_at j k) /\ m_storage m <> None /\
     (forall tail, dlt_message (message_bytes m ++ tail) f true = POk (res m) tail)) ->
  (forall k, ~ pattern_at jn k) -> (length l < fuel)%nat ->
  parse_all fuel (messages_bytes l jn) f true = (map (fun p => res (snd p)) l, jn).
Proof.
  intros Hl Hjn Hf. rewrite (messages_bytes_stream res).
  rewrite stream_recovered; [| |exact Hjn|now rewrite map_length].
  - now rewrite map_map.
  - apply Forall_forall. intros p Hp. apply in_map_iff in Hp as ([j m] & <- & Hin).
    cbn [fst snd good_piece]. destruct (Hl j m Hin) as (Hj & Hs & Hparse).
    split; [exact Hj|]. split; [|exact Hparse].
    unfold message_bytes. destruct (m_storage m) as [s|]; [|congruence].
    unfold storage_header_bytes. rewrite <- !app_assoc. eexists. reflexivity.
Qed.

(* ---------- a concrete piece satisfying [good_piece] (for the Examples of Properties/C06.v) ----------
   storage header (1 s, 2 us, "ECU") + standard header without optional fields, no extended header,
   non-verbose payload with message id 0x04030201 and no data *)
Definition ex_msg : message :=
  mkMsg (Some (mkSH (mkTS 1 2) [x45; x43; x55])) (mkStd 1 LE false 0 None None None 4) None
        (PNonVerbose 67305985 []).
Definition ex_bytes : list byte :=
  [x44; x4c; x54; x01; x01; x00; x00; x00; x02; x00; x00; x00; x45; x43; x55; x00;
   x20; x00; x00; x08; x01; x02; x03; x04].

Lemma ex_bytes_eq : ex_bytes = message_bytes ex_msg.
Proof. vm_compute. reflexivity. Qed.

Lemma ex_parses tail : dlt_message (ex_bytes ++ tail) None true = POk (Item ex_msg) tail.
Proof. rewrite ex_bytes_eq. exact (message_roundtrip ex_msg tail eq_refl). Qed.

Lemma ex_good_piece junk :
  (forall k, ~ pattern_at junk k) -> good_piece None (junk, ex_bytes, Item ex_msg).
Proof.
  intros Hj. split; [exact Hj|]. split; [|exact ex_parses].
  eexists. unfold ex_bytes, pat_DLT1. cbn [app]. reflexivity.
Qed.

(* a decidable way to show that a concrete junk is pattern-free *)
Lemma no_pattern (junk : list byte) : find_pattern junk = None -> forall j, ~ pattern_at junk j.
Proof. exact (proj1 (find_pattern_none junk)). Qed.

