(* Proofs/ArgsRoundtrip.v — every well-formed argument, written by Argument::as_bytes in either byte order, is
   read back by dlt_argument with any continuation, and every proper prefix of its bytes is reported
   Incomplete: [stable (dlt_argument e) (arg_bytes e a) a]; the same for lists (count); no `len as u16 + 1`
   of a well-formed argument overflows. *)
From Coq Require Import Lia ZifyBool ZifyN ZifyNat.
From DltV.Model Require Import Bytes Utf8 Nom Dlt Parse.
From DltV.Spec Require Import WellFormed.
From DltV.Proofs Require Import Fields Codes Stable Lengths.
Open Scope N_scope.

Lemma stable_uint_bits e k b v : (v <? 2 ^ b) = true -> b <= 8 * N.of_nat k -> stable (uint e k) (put_uint e k v) v.
Proof. intros H1 H2. apply stable_uint. apply N.ltb_lt in H1. eapply lt_256_pow; eassumption. Qed.

Lemma stable_type_info e t :
  wf_coding (ti_coding t) = true -> stable (dlt_type_info e) (ti_bytes e t) t.
Proof.
  intros H. destruct (ti_roundtrip t H) as [D B]. unfold dlt_type_info, ti_bytes.
  apply (stable_bind_last (uint e 4) _ _ (ti_encode t)).
  - apply stable_uint. apply (lt_256_pow 4 _ 18 B). cbn. lia.
  - intros i. rewrite D. reflexivity.
Qed.

Lemma u16_len_plus1_eq s : len s <= 65534 -> u16_len_plus1 s = len s + 1.
Proof.
  intros H. unfold u16_len_plus1. rewrite (N.mod_small (len s)) by lia. apply N.mod_small. lia.
Qed.

(* a NUL-terminated string, the size field counting the NUL *)
Lemma stable_zterm s : no_nul s = true -> valid_utf8 s = true -> stable (zstring (len s + 1)) (s ++ [x00]) s.
Proof.
  intros Hn Hv. pose proof (stable_zstring (len s + 1) s Hn Hv) as H.
  replace (len s + 1 - len s) with 1 in H by lia. change (N.to_nat 1) with 1%nat in H.
  apply H. lia.
Qed.

Lemma stable_variable_name e n :
  wf_text n = true ->
  stable (dlt_variable_name e) (put_uint e 2 (u16_len_plus1 n) ++ n ++ [x00]) n.
Proof.
  intros H. apply wf_text_inv in H as (Hl & Hn & Hv). rewrite (u16_len_plus1_eq n Hl).
  unfold dlt_variable_name.
  apply (stable_bind (uint e 2) _ _ _ (len n + 1)).
  - apply stable_u16. lia.
  - cbv beta. now apply stable_zterm.
Qed.

(* ---------- name and unit (numeric kinds) ---------- *)
Definition nu_bytes (e : endian) (t : type_info) (name unit : option (list byte)) : list byte :=
  if ti_var_info t then
     put_uint e 2 (match name with Some n => u16_len_plus1 n | None => 1 end)
     ++ put_uint e 2 (match unit with Some u => u16_len_plus1 u | None => 1 end)
     ++ (match name with Some n => n ++ [x00] | None => [x00] end)
     ++ (match unit with Some u => u ++ [x00] | None => [x00] end)
  else [].

Lemma buf_ti_name_unit_eq e t name unit fp :
  buf_ti_name_unit e t name unit fp = ti_bytes e t ++ nu_bytes e t name unit ++ fp_bytes e fp.
Proof. reflexivity. Qed.

Lemma stable_name_unit e t name unit :
  nu_cond (ti_var_info t) name unit = true ->
  stable (dlt_variable_name_and_unit e t) (nu_bytes e t name unit) (name, unit).
Proof.
  intros H. apply nu_cond_inv in H as (E1 & E2 & W1 & W2). apply Bool.eqb_prop in E1, E2.
  unfold dlt_variable_name_and_unit, nu_bytes. destruct (ti_var_info t).
  - destruct name as [n|]; [|discriminate]. destruct unit as [u|]; [|discriminate].
    cbn [wf_opt] in W1, W2.
    apply wf_text_inv in W1 as (Hl1 & Hn1 & Hv1). apply wf_text_inv in W2 as (Hl2 & Hn2 & Hv2).
    rewrite (u16_len_plus1_eq n Hl1), (u16_len_plus1_eq u Hl2).
    apply (stable_bind (uint e 2) _ _ _ (len n + 1));
      [apply stable_u16; lia|]. cbv beta.
    apply (stable_bind (uint e 2) _ _ _ (len u + 1));
      [apply stable_u16; lia|]. cbv beta.
    apply (stable_bind (zstring (len n + 1)) _ _ _ n); [now apply stable_zterm|]. cbv beta.
    apply (stable_bind_last (zstring (len u + 1)) _ _ u); [now apply stable_zterm|].
    reflexivity.
  - destruct name; [discriminate|]. destruct unit; [discriminate|]. apply stable_ret.
Qed.

(* ---------- values ---------- *)
Lemma put_sint_1 e z : put_sint e 1 z = put_sint BE 1 z.
Proof. unfold put_sint. now rewrite !put_uint_1. Qed.

Lemma stable_dlt_sint e l v :
  wf_signed_value l v = true -> stable (dlt_sint e l) (signed_value_bytes e v) v.
Proof.
  intros H. destruct l, v; try discriminate H; cbn [wf_signed_value] in H;
    unfold dlt_sint, signed_value_bytes; rewrite ?put_sint_1.
  all: apply stable_pmap, stable_sint; [lia | exact H].
Qed.

Lemma stable_dlt_uint e l v :
  wf_unsigned_value l v = true -> stable (dlt_uint e l) (unsigned_value_bytes e v) v.
Proof.
  intros H. destruct l, v; try discriminate H; cbn [wf_unsigned_value] in H;
    unfold dlt_uint, unsigned_value_bytes, u8; rewrite ?(put_uint_1 e), <- ?(put_uint_1 BE).
  all: apply stable_pmap, (stable_uint_bits _ _ _ _ H); cbn; lia.
Qed.

Lemma stable_dlt_fint e w v :
  wf_float_value w v = true -> stable (dlt_fint e w) (float_value_bytes e v) v.
Proof.
  intros H. destruct w, v; try discriminate H; cbn [wf_float_value] in H;
    unfold dlt_fint, float_value_bytes.
  all: apply stable_pmap, (stable_uint_bits _ _ _ _ H); cbn; lia.
Qed.

Lemma stable_fixed_point e w fp :
  wf_fp w (Some fp) = true -> stable (dlt_fixed_point e w) (fp_bytes e (Some fp)) fp.
Proof.
  destruct fp as [q o]. unfold wf_fp. cbn [fp_quant fp_offset]. intros H.
  apply andb_true_iff in H as [Hq Ho].
  unfold dlt_fixed_point, fp_bytes. cbn [fp_quant fp_offset].
  apply (stable_bind (uint e 4) _ _ _ q); [apply (stable_uint_bits e 4 32 q Hq); cbn; lia|]. cbv beta.
  destruct w, o as [z|z]; try discriminate Ho; unfold fp_offset_bytes.
  - apply (stable_bind_last (sint e 4) _ _ z); [apply stable_sint; [lia | exact Ho] | reflexivity].
  - apply (stable_bind_last (sint e 8) _ _ z); [apply stable_sint; [lia | exact Ho] | reflexivity].
Qed.

(* ---------- optional name (bool, string, raw) ---------- *)
Definition name_bytes (e : endian) (name : option (list byte)) : list byte :=
  match name with Some n => put_uint e 2 (u16_len_plus1 n) ++ n ++ [x00] | None => [] end.

Lemma stable_opt_name e (vari : bool) name :
  Bool.eqb (is_some name) vari = true -> wf_opt wf_text name = true ->
  stable (fun i => if vari then pmap Some (dlt_variable_name e i) else POk None i) (name_bytes e name) name.
Proof.
  intros E W. apply Bool.eqb_prop in E. subst vari. apply stable_option.
  intros n ->. now apply stable_variable_name.
Qed.

Lemma stable_plain e t name unit fp (pv : list byte -> pres value) vb v :
  nu_cond (ti_var_info t) name unit = true -> is_none fp = true -> stable pv vb v ->
  stable (fun i => let* (nu, before_val) := dlt_variable_name_and_unit e t i in
                   let* (v, rest) := pv before_val in
                   POk (mkArg t (fst nu) (snd nu) None v) rest)
         (nu_bytes e t name unit ++ fp_bytes e fp ++ vb) (mkArg t name unit fp v).
Proof.
  intros H Hf Sv. apply is_none_inv in Hf as ->.
  apply (stable_bind _ _ _ _ _ _ (stable_name_unit e t name unit H)). cbv beta.
  now apply (stable_bind_last _ _ _ _ _ Sv).
Qed.

Lemma stable_fixed e t name unit w fp (pv : list byte -> pres value) vb v :
  nu_cond (ti_var_info t) name unit = true -> wf_fp w fp = true -> stable pv vb v ->
  stable (fun i => let* (nu, before_val) := dlt_variable_name_and_unit e t i in
                   let* (fp, after_fp) := dlt_fixed_point e w before_val in
                   let* (v, rest) := pv after_fp in
                   POk (mkArg t (fst nu) (snd nu) (Some fp) v) rest)
         (nu_bytes e t name unit ++ fp_bytes e fp ++ vb) (mkArg t name unit fp v).
Proof.
  intros H Hf Sv. destruct fp as [fp|]; [|discriminate Hf].
  apply (stable_bind _ _ _ _ _ _ (stable_name_unit e t name unit H)). cbv beta.
  apply (stable_bind _ _ _ _ _ _ (stable_fixed_point e w fp Hf)). cbv beta.
  now apply (stable_bind_last _ _ _ _ _ Sv).
Qed.

(* ---------- one argument ---------- *)
Theorem stable_argument e a : wf_arg a = true -> stable (dlt_argument e) (arg_bytes e a) a.
Proof.
  destruct a as [t name unit fp v]. intros H. apply wf_arg_cases in H as [Hc H]. unfold dlt_argument, arg_bytes.
  cbn [a_ti a_name a_unit a_fp a_value] in *. pose proof (stable_type_info e t Hc) as ST.
  destruct (numeric_of (ti_kind_of t)) as [[fw wv]|] eqn:N.
  - destruct H as (Hnu & Hf & Hv). rewrite buf_ti_name_unit_eq.
    revert N. destruct (ti_kind_of t) as [|l|w|l|w|w| |] eqn:K; intros N; try discriminate N;
      injection N as <- <-; rewrite <- !app_assoc;
      apply (stable_bind (dlt_type_info e) _ (ti_bytes e t) _ t _ ST); cbv beta; rewrite K.
    + exact (stable_plain e t name unit fp _ _ _ Hnu Hf (stable_dlt_sint e l v Hv)).
    + exact (stable_fixed e t name unit w fp _ _ _ Hnu Hf (stable_dlt_sint e _ v Hv)).
    + exact (stable_plain e t name unit fp _ _ _ Hnu Hf (stable_dlt_uint e l v Hv)).
    + exact (stable_fixed e t name unit w fp _ _ _ Hnu Hf (stable_dlt_uint e _ v Hv)).
    + exact (stable_plain e t name unit fp _ _ _ Hnu Hf (stable_dlt_fint e w v Hv)).
  - destruct H as (H & -> & Hv). apply name_cond_inv in H as (E & -> & W).
    pose proof (stable_opt_name e _ name E W) as SN.
    (* the bytes of a string or raw argument: type info, size of the value, name, value *)
    assert (EB : forall sz vb, (match ti_var_info t, name with
                  | true, Some n => ti_bytes e t ++ put_uint e 2 sz ++ put_uint e 2 (u16_len_plus1 n)
                                    ++ n ++ [x00] ++ vb
                  | false, None => ti_bytes e t ++ put_uint e 2 sz ++ vb
                  | _, _ => []
                  end) = ti_bytes e t ++ put_uint e 2 sz ++ name_bytes e name ++ vb).
    { intros sz vb. pose proof (Bool.eqb_prop _ _ E) as E'.
      destruct (ti_var_info t), name as [n|]; try discriminate E'.
      - cbn [name_bytes]. now rewrite <- !app_assoc.
      - reflexivity. }
    revert N Hv. destruct (ti_kind_of t) eqn:K; intros N Hv; try discriminate N;
      destruct v; try discriminate Hv; cbn [named_value] in Hv.
    + (* bool *)
      unfold buf_ti_name. fold (name_bytes e name). rewrite <- app_assoc.
      apply (stable_bind (dlt_type_info e) _ (ti_bytes e t) _ t _ ST); cbv beta; rewrite K.
      apply (stable_bind _ _ (name_bytes e name) _ name _ SN). cbv beta.
      apply (stable_bind_last u8 _ _ n); [apply stable_u8; now apply N.ltb_lt | reflexivity].
    + (* string *)
      rewrite (EB _ (s ++ [x00])).
      apply wf_text_inv in Hv as (Hl & Hn & Hu). rewrite (u16_len_plus1_eq s Hl).
      apply (stable_bind (dlt_type_info e) _ (ti_bytes e t) _ t _ ST); cbv beta; rewrite K.
      apply (stable_bind (uint e 2) _ _ _ (len s + 1)); [apply stable_u16; lia|]. cbv beta.
      apply (stable_bind _ _ (name_bytes e name) _ name _ SN). cbv beta.
      apply (stable_bind_last (zstring (len s + 1)) _ _ s); [now apply stable_zterm | reflexivity].
    + (* raw *)
      rewrite (EB _ bs). apply N.leb_le in Hv. rewrite (N.mod_small (len bs) 65536) by lia.
      apply (stable_bind (dlt_type_info e) _ (ti_bytes e t) _ t _ ST); cbv beta; rewrite K.
      apply (stable_bind (uint e 2) _ _ _ (len bs)); [apply stable_u16; lia|]. cbv beta.
      apply (stable_bind _ _ (name_bytes e name) _ name _ SN). cbv beta.
      apply (stable_bind_last (take (len bs)) _ _ bs); [now apply stable_take | reflexivity].
Qed.

Corollary argument_roundtrip e a r : wf_arg a = true -> dlt_argument e (arg_bytes e a ++ r) = POk a r.
Proof. intros H. apply (stable_argument e a H). Qed.

(* ---------- lists of arguments: nom's count ---------- *)
Lemma stable_count {A} (p : list byte -> pres A) (bytes : A -> list byte) (l : list A) :
  (forall a, In a l -> stable p (bytes a) a) ->
  stable (count p (length l)) (flat_map bytes l) l.
Proof.
  induction l as [|a l IH]; intros H.
  - apply stable_ret.
  - cbn [length count flat_map].
    apply (stable_bind p _ (bytes a) (flat_map bytes l) a (a :: l)); [apply H; now left|].
    cbv beta. apply (stable_pmap (cons a) (count p (length l))). apply IH.
    intros b Hb. apply H. now right.
Qed.

Theorem stable_arguments e args :
  forallb wf_arg args = true ->
  stable (count (dlt_argument e) (length args)) (flat_map (arg_bytes e) args) args.
Proof.
  intros H. apply stable_count. intros a Ha. apply stable_argument.
  rewrite forallb_forall in H. now apply H.
Qed.

Corollary arguments_roundtrip e args r :
  forallb wf_arg args = true ->
  count (dlt_argument e) (length args) (flat_map (arg_bytes e) args ++ r) = POk args r.
Proof. intros H. apply (stable_arguments e args H). Qed.

(* ---------- the debug-build `len as u16 + 1` overflow checks do not fire ---------- *)
Lemma len_plus1_no_overflow s : wf_text s = true -> len_plus1_overflows s = false.
Proof.
  intros H. apply wf_text_inv in H as (Hl & _ & _). apply len_plus1_ok. lia.
Qed.
Lemma opt_no_overflow o : wf_opt wf_text o = true -> opt_overflows o = false.
Proof. destruct o as [s|]; [apply len_plus1_no_overflow | reflexivity]. Qed.

Lemma arg_no_overflow a : wf_arg a = true -> arg_bytes_overflows a = false.
Proof.
  intros H. apply wf_arg_cases in H as [_ H]. unfold arg_bytes_overflows.
  destruct (numeric_of (ti_kind_of (a_ti a))) as [[fw wv]|] eqn:N.
  - destruct H as (H & _). apply nu_cond_inv in H as (_ & _ & W1 & W2).
    rewrite (opt_no_overflow _ W1), (opt_no_overflow _ W2).
    destruct (ti_kind_of (a_ti a)); try discriminate N; now destruct (ti_var_info (a_ti a)).
  - destruct H as (H & _ & Hv). apply name_cond_inv in H as (_ & _ & W).
    revert N Hv. destruct (ti_kind_of (a_ti a)); intros N Hv; try discriminate N.
    + now apply opt_no_overflow.
    + destruct (a_value a); try discriminate Hv. rewrite (len_plus1_no_overflow _ Hv).
      destruct (ti_var_info (a_ti a)), (a_name a) as [n|]; try reflexivity.
      now rewrite (len_plus1_no_overflow n W).
    + destruct (a_value a); try discriminate Hv.
      destruct (ti_var_info (a_ti a)), (a_name a) as [n|]; try reflexivity.
      now apply len_plus1_no_overflow.
Qed.
