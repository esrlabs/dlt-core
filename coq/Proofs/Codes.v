(* Proofs/Codes.v — C14: header-type byte, message-info byte, type-info word.
   The 8-bit domains are decided by kernel-evaluated sweeps (range_sweep); the type-info word, of any
   size, by a bit-level reduction: the kind depends on the low 13 bits only (swept), the other fields
   are copied (ti_decode_kind). *)
From Coq Require Import Lia ZifyBool ZifyN ZifyNat.
From DltV.Model Require Import Bytes Dlt.
From DltV.Spec Require Import WellFormed.
From DltV.Proofs Require Import BytesBasics.
Open Scope N_scope.
Ltac Zify.zify_post_hook ::= Z.div_mod_to_equations.

Definition range (k : nat) : list N := map N.of_nat (seq 0 k).
Lemma in_range_N k n : n < N.of_nat k -> In n (range k).
Proof.
  intros H. unfold range. apply in_map_iff. exists (N.to_nat n). split; [lia|].
  apply in_seq. lia.
Qed.
Lemma range_sweep (P : N -> bool) k : forallb P (range k) = true -> forall n, n < N.of_nat k -> P n = true.
Proof. intros S n H. rewrite forallb_forall in S. apply S, in_range_N, H. Qed.

(* all n-bit numbers, built bit by bit: unlike [range] no unary number stands behind an element, which is
   what an evaluation over thousands of them would otherwise spend its time on *)
Fixpoint words (n : nat) : list N :=
  match n with O => [0] | S n => flat_map (fun w => [N.double w; N.succ_double w]) (words n) end.
Lemma in_words n w : w < 2 ^ N.of_nat n -> In w (words n).
Proof.
  revert w. induction n as [|n IH]; intros w H.
  - left. cbn in H. lia.
  - cbn [words]. apply in_flat_map. exists (N.div2 w). split.
    + apply IH. rewrite Nat2N.inj_succ, N.pow_succ_r' in H. rewrite N.div2_div. lia.
    + destruct w as [|[p|p|]]; cbn; auto.
Qed.

(* ---------- HTYP ---------- *)
Definition htyp_roundtrip (b : N) : bool :=
  htyp_encode (flag b 1) (if flag b 2 then BE else LE) (flag b 4) (flag b 8) (flag b 16)
    (N.land (N.shiftr b 5) 7) =? b.
Definition htyp_layout (b : N) : bool :=
  Bool.eqb (flag b 1) (N.testbit b 0) && Bool.eqb (flag b 2) (N.testbit b 1)
  && Bool.eqb (flag b 4) (N.testbit b 2) && Bool.eqb (flag b 8) (N.testbit b 3)
  && Bool.eqb (flag b 16) (N.testbit b 4) && (N.land (N.shiftr b 5) 7 =? b / 32)
  && (calculate_standard_header_length b =?
      4 + (if N.testbit b 2 then 4 else 0) + (if N.testbit b 3 then 4 else 0) + (if N.testbit b 4 then 4 else 0))
  && (calculate_all_headers_length b =? calculate_standard_header_length b + (if N.testbit b 0 then 10 else 0)).

Lemma htyp_sweep : forallb (fun b => htyp_roundtrip b && htyp_layout b) (range 256) = true.
Proof. vm_compute. reflexivity. Qed.

Lemma htyp_all b : b < 256 -> htyp_roundtrip b = true /\ htyp_layout b = true.
Proof.
  intros H. now apply andb_true_iff, (range_sweep _ 256 htyp_sweep).
Qed.

(* ---------- MSIN ---------- *)
(* the message type the DLT layout prescribes for MSTP (bits 1-3) and MTIN (bits 4-7) *)
Definition spec_mtype (mstp mtin : N) : message_type :=
  match mstp with
  | 0 => MLog (match mtin with 1 => Fatal | 2 => LError | 3 => Warn | 4 => Info | 5 => Debug | 6 => Verbose | v => LInvalid v end)
  | 1 => MAppTrace (match mtin with 1 => AVariable | 2 => AFunctionIn | 3 => AFunctionOut | 4 => AState | 5 => AVfb | v => AInvalid v end)
  | 2 => MNwTrace (match mtin with 0 => NInvalid | 1 => NIpc | 2 => NCan | 3 => NFlexray | 4 => NMost | 5 => NEthernet | 6 => NSomeip | v => NUserDefined v end)
  | 3 => MControl (match mtin with 1 => CRequest | 2 => CResponse | v => CUnknown v end)
  | v => MUnknown v mtin
  end.

Definition log_level_eqb (a b : log_level) : bool :=
  match a, b with
  | Fatal, Fatal | LError, LError | Warn, Warn | Info, Info | Debug, Debug | Verbose, Verbose => true
  | LInvalid x, LInvalid y => x =? y
  | _, _ => false
  end.
Definition mtype_eqb (a b : message_type) : bool :=
  match a, b with
  | MLog x, MLog y => log_level_eqb x y
  | MAppTrace x, MAppTrace y =>
    match x, y with
    | AVariable, AVariable | AFunctionIn, AFunctionIn | AFunctionOut, AFunctionOut
    | AState, AState | AVfb, AVfb => true
    | AInvalid p, AInvalid q => p =? q
    | _, _ => false
    end
  | MNwTrace x, MNwTrace y =>
    match x, y with
    | NIpc, NIpc | NCan, NCan | NFlexray, NFlexray | NMost, NMost | NEthernet, NEthernet
    | NSomeip, NSomeip | NInvalid, NInvalid => true
    | NUserDefined p, NUserDefined q => p =? q
    | _, _ => false
    end
  | MControl x, MControl y =>
    match x, y with
    | CRequest, CRequest | CResponse, CResponse => true
    | CUnknown p, CUnknown q => p =? q
    | _, _ => false
    end
  | MUnknown a1 b1, MUnknown a2 b2 => (a1 =? a2) && (b1 =? b2)
  | _, _ => false
  end.
Lemma mtype_eqb_eq a b : mtype_eqb a b = true -> a = b.
Proof.
  destruct a as [[]|[]|[]|[]|], b as [[]|[]|[]|[]|]; cbn; intros H; try discriminate; try reflexivity;
    try (apply N.eqb_eq in H; now subst).
  apply andb_true_iff in H as [H1 H2]. apply N.eqb_eq in H1, H2. now subst.
Qed.

Definition msin_check (b : N) : bool :=
  (msin_encode (message_type_decode b) (msin_verbose b) =? b)
  && Bool.eqb (msin_verbose b) (N.testbit b 0)
  && mtype_eqb (message_type_decode b) (spec_mtype ((b / 2) mod 8) (b / 16)).
Lemma msin_sweep : forallb msin_check (range 256) = true.
Proof. vm_compute. reflexivity. Qed.
Lemma msin_all b : b < 256 ->
  msin_encode (message_type_decode b) (msin_verbose b) = b /\
  msin_verbose b = N.testbit b 0 /\
  message_type_decode b = spec_mtype ((b / 2) mod 8) (b / 16).
Proof.
  intros H. pose proof (range_sweep _ 256 msin_sweep b H) as S. unfold msin_check in S.
  apply andb_true_iff in S as [S S3]. apply andb_true_iff in S as [S1 S2].
  repeat split; [now apply N.eqb_eq | now apply Bool.eqb_prop | now apply mtype_eqb_eq].
Qed.

(* ---------- type info ----------
   ti_decode finds the kind from TYLE (bits 0-3), the type bits 4-10 and FIXP (12), and copies VARI (11),
   TRAI (13) and SCOD (15-17) into the result; STRU (14) and every bit from 18 up are ignored.  So the kind
   is a function of the low 13 bits, and only those are swept. *)
Lemma land7 a : N.land a 7 = a mod 8. Proof. apply (N.land_ones a 3). Qed.

Lemma land_pow2_eqb w k : (N.land w (2 ^ k) =? 0) = negb (N.testbit w k).
Proof.
  destruct (N.testbit w k) eqn:E; cbn [negb].
  - apply N.eqb_neq. intros H.
    assert (B : N.testbit (N.land w (2 ^ k)) k = true)
      by (rewrite N.land_spec, E, N.pow2_bits_true; reflexivity).
    rewrite H in B. now rewrite N.bits_0 in B.
  - apply N.eqb_eq. apply N.bits_inj. intros i. rewrite N.land_spec, N.bits_0.
    destruct (N.eq_dec i k) as [->|Hne]; [now rewrite E|].
    rewrite N.pow2_bits_false by congruence. apply andb_false_r.
Qed.

Lemma land_mask a m k : N.land m k = k -> N.land (N.land a m) k = N.land a k.
Proof. intros E. now rewrite <- N.land_assoc, E. Qed.
Lemma shiftr_land_mask a m n k :
  N.land (N.shiftr m n) k = k -> N.land (N.shiftr (N.land a m) n) k = N.land (N.shiftr a n) k.
Proof. intros E. now rewrite N.shiftr_land, <- N.land_assoc, E. Qed.
Lemma testbit_land_ones w n i : i < n -> N.testbit (N.land w (N.ones n)) i = N.testbit w i.
Proof. intros H. now rewrite N.land_spec, N.ones_spec_low, andb_true_r. Qed.

Definition coding_of_scod (s : N) : string_coding :=
  match s with 0 => SAscii | 1 => SUtf8 | v => SReserved v end.
Definition scod_of_coding (c : string_coding) : N :=
  match c with SAscii => 0 | SUtf8 => 1 | SReserved v => v end.
Lemma scod_of_coding_of s : scod_of_coding (coding_of_scod s) = s.
Proof. now destruct s as [|[[]|[]|]]. Qed.

(* 8191 = N.ones 13 *)
Definition ti_flags (w : N) (k : ti_kind) : type_info :=
  mkTI k (coding_of_scod (N.land (N.shiftr w 15) 7)) (negb (N.land w 2048 =? 0)) (negb (N.land w 8192 =? 0)).
Definition ti_kind_decode (w : N) : option ti_kind := option_map ti_kind_of (ti_decode (N.land w 8191)).

Lemma ti_decode_kind w : ti_decode w = option_map (ti_flags w) (ti_kind_decode w).
Proof.
  unfold ti_kind_decode, ti_decode, type_len_decode, type_len_float_decode. cbv zeta.
  rewrite (land_mask w 8191 15), (land_mask w 8191 4096), (shiftr_land_mask w 8191 4 127) by reflexivity.
  match goal with |- option_map _ ?K = _ => destruct K end; [|reflexivity].
  cbn [option_map ti_kind_of]. unfold ti_flags, coding_of_scod.
  (* the model's match binds the scrutinee per branch, coding_of_scod reuses its argument *)
  now destruct (N.land (N.shiftr w 15) 7) as [|[]].
Qed.

Lemma ti_coding_wf w k : wf_coding (ti_coding (ti_flags w k)) = true.
Proof.
  cbn [ti_flags ti_coding]. rewrite land7.
  assert (H : N.shiftr w 15 mod 8 < 8) by (apply N.mod_lt; discriminate).
  destruct (N.shiftr w 15 mod 8) as [|[[[]|[]|]|[[]|[]|]|]]; try reflexivity; lia.
Qed.

Lemma ti_roundtrip t : wf_coding (ti_coding t) = true ->
  ti_decode (ti_encode t) = Some t /\ ti_encode t < 2 ^ 18.
Proof.
  destruct t as [k c v tr]. cbn [ti_coding]. intros H.
  destruct c as [| |n].
  - destruct k as [|[]|[]|[]|[]|[]| |], v, tr; vm_compute; split; reflexivity.
  - destruct k as [|[]|[]|[]|[]|[]| |], v, tr; vm_compute; split; reflexivity.
  - cbn [wf_coding] in H. apply andb_true_iff in H as [H1 H2]. apply N.leb_le in H1, H2.
    assert (E : n = 2 \/ n = 3 \/ n = 4 \/ n = 5 \/ n = 6 \/ n = 7) by lia. clear H1 H2.
    destruct E as [->|[->|[->|[->|[->| ->]]]]];
      destruct k as [|[]|[]|[]|[]|[]| |], v, tr; vm_compute; split; reflexivity.
Qed.

(* ---------- type info: what the format prescribes ---------- *)
Definition names_supported (w : N) : bool :=
  let tyle := w mod 16 in
  let fixp := N.testbit w 12 in
  match (w / 16) mod 128 with
  | 1 | 32 | 64 => true                                        (* BOOL, STRG, RAWD: any TYLE *)
  | 2 | 4 => if fixp then (3 <=? tyle) && (tyle <=? 4)          (* SINT, UINT *)
             else (1 <=? tyle) && (tyle <=? 5)
  | 8 => (3 <=? tyle) && (tyle <=? 4)                           (* FLOA *)
  | _ => false
  end.
(* the same with masks and shifts: the sweep below evaluates this form, since division by a constant is what
   the kernel (and most of all coqchk's lazy machine) spends its time on otherwise *)
Definition names_supported_bits (w : N) : bool :=
  let tyle := N.land w 15 in
  match N.land (N.shiftr w 4) 127 with
  | 1 | 32 | 64 => true
  | 2 | 4 => if N.testbit w 12 then (3 <=? tyle) && (tyle <=? 4) else (1 <=? tyle) && (tyle <=? 5)
  | 8 => (3 <=? tyle) && (tyle <=? 4)
  | _ => false
  end.
Lemma names_supported_bits_eq w : names_supported w = names_supported_bits w.
Proof.
  unfold names_supported, names_supported_bits. change 16 with (2 ^ 4). change 128 with (2 ^ 7).
  now rewrite <- !N.shiftr_div_pow2, <- !N.land_ones.
Qed.
(* TYLE, the type bits and FIXP lie below bit 13 *)
Lemma names_supported_kind w : names_supported w = names_supported (N.land w 8191).
Proof.
  rewrite !names_supported_bits_eq. unfold names_supported_bits.
  now rewrite (testbit_land_ones w 13), land_mask, shiftr_land_mask by reflexivity.
Qed.

(* bits below 18 that the format leaves unused for a kind: STRU (14) always; TYLE (0-3) and
   FIXP (12) for bool/string/raw; FIXP for float *)
Definition unused_low (k : ti_kind) : N :=
  match k with
  | KBool | KString | KRaw => 16384 + 4096 + 15
  | KFloat _ => 16384 + 4096
  | _ => 16384
  end.
Definition unused_bit (k : ti_kind) (i : N) : bool := (18 <=? i) || N.testbit (unused_low k) i.


Lemma in_kind_words w : In (N.land w 8191) (words 13).
Proof. apply in_words. change 8191 with (N.ones 13). rewrite N.land_ones. now apply N.mod_lt. Qed.

(* a 13-bit word is refused iff it names no supported kind; otherwise clearing VARI and the bits its kind
   leaves unused gives the plain encoding of that kind *)
Definition kind_check (u : N) : bool :=
  match ti_kind_decode u with
  | None => negb (names_supported_bits u)
  | Some k =>
    names_supported_bits u && (N.ldiff u (N.lor (unused_low k) 2048) =? ti_encode (mkTI k SAscii false false))
  end.
Lemma kind_sweep : forallb kind_check (words 13) = true.
Proof. vm_compute. reflexivity. Qed.

Lemma kind_checked w :
  match ti_kind_decode w with
  | None => names_supported w = false
  | Some k =>
    names_supported w = true
    /\ N.ldiff (N.land w 8191) (N.lor (unused_low k) 2048) = ti_encode (mkTI k SAscii false false)
  end.
Proof.
  pose proof kind_sweep as S. rewrite forallb_forall in S. specialize (S _ (in_kind_words w)).
  unfold kind_check, ti_kind_decode in S.
  rewrite land_mask, <- names_supported_bits_eq, <- names_supported_kind in S by reflexivity.
  fold (ti_kind_decode w) in S. destruct (ti_kind_decode w).
  - apply andb_true_iff in S as [S1 S2]. split; [exact S1 | now apply N.eqb_eq].
  - now apply negb_true_iff.
Qed.

Lemma ti_decode_bits w1 w2 t i : ti_decode w1 = Some t -> ti_decode w2 = Some t ->
  unused_bit (ti_kind_of t) i = false -> N.testbit w1 i = N.testbit w2 i.
Proof.
  rewrite (ti_decode_kind w1), (ti_decode_kind w2).
  pose proof (kind_checked w1) as E1. pose proof (kind_checked w2) as E2.
  destruct (ti_kind_decode w1) as [k1|]; [|discriminate]. destruct (ti_kind_decode w2) as [k2|]; [|discriminate].
  cbn [option_map]. intros [= <-] E' U.
  assert (E : ti_flags w2 k2 = ti_flags w1 k1) by congruence. clear E'.
  pose proof (f_equal ti_kind_of E) as K. pose proof (f_equal (fun t => scod_of_coding (ti_coding t)) E) as C.
  pose proof (f_equal ti_var_info E) as V. pose proof (f_equal ti_trace_info E) as T. clear E.
  cbn [ti_flags ti_kind_of ti_coding ti_var_info ti_trace_info] in *. rewrite !scod_of_coding_of in C. subst k2.
  destruct E1 as [_ E1], E2 as [_ E2]. rewrite <- E1 in E2. clear E1.
  apply orb_false_iff in U as [Hi U]. apply N.leb_gt in Hi.
  change 2048 with (2 ^ 11) in *. change 8192 with (2 ^ 13) in T. rewrite !land_pow2_eqb, !negb_involutive in V, T.
  destruct (N.eq_dec i 11) as [->|N11]; [congruence|]. destruct (N.eq_dec i 13) as [->|N13]; [congruence|].
  destruct (N.lt_ge_cases i 13) as [L|G].
  - apply (f_equal (fun x => N.testbit x i)) in E2.
    rewrite !N.ldiff_spec, N.lor_spec, U, N.pow2_bits_false, !(testbit_land_ones _ 13), !andb_true_r in E2
      by (exact L || congruence).
    congruence.
  - destruct (N.eq_dec i 14) as [->|N14]; [destruct k1; discriminate U|].
    apply (f_equal (fun x => N.testbit x (i - 15))) in C.
    rewrite !(testbit_land_ones _ 3), !N.shiftr_spec' in C by lia.
    replace (i - 15 + 15) with i in C by lia. congruence.
Qed.

Definition ti_ok (w : N) : Prop :=
  match ti_decode w with
  | None => names_supported w = false
  | Some t =>
    names_supported w = true
    /\ ti_decode (ti_encode t) = Some t
    /\ (forall i, N.testbit (N.lxor (ti_encode t) w) i = true -> unused_bit (ti_kind_of t) i = true)
  end.
