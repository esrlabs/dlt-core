(* Proofs/ParsedWf.v — what the parser returns is representable.  Main result [parsed_wf]: every
   message [dlt_message] returns whose re-serialisation has the length its own header declares
   satisfies [wf_message]. *)
From Coq Require Import Lia ZifyBool ZifyN ZifyNat.
From DltV.Model Require Import Bytes Nom Dlt Parse.
From DltV.Model Require Run.
From DltV.Proofs Require Import BytesBasics Fields ParseLemmas Consumption Lengths ParseInv.
From DltV.Spec Require Import WellFormed.
Open Scope N_scope.

(* [has_storage m := match m_storage m with Some _ => true | None => false end], Model/Run.v *)
Notation has_storage := Run.has_storage.

(* ---------- network trace: dropped arguments shorten the re-serialisation ---------- *)
Definition nw_bytes (e : endian) (sl : list (list byte)) : list byte :=
  payload_bytes e (PNetworkTrace sl).

Lemma nw_bytes_cons e s sl : len (nw_bytes e (s :: sl)) = 6 + len s + len (nw_bytes e sl).
Proof.
  unfold nw_bytes. cbn [payload_bytes flat_map]. rewrite !len_app, !len_put_uint. lia.
Qed.

(* every argument was read from at least as many bytes as its slice re-serialises to, and from
   at least one byte if it is dropped *)
Lemma nw_count e args :
  len (nw_bytes e (raw_slices args)) + len args <= args_floor args + len (raw_slices args).
Proof.
  induction args as [|a args IH]; [reflexivity|].
  unfold raw_slices in *. cbn [flat_map args_floor]. unfold arg_floor.
  destruct (a_value a); cbn [val_floor app]; rewrite ?nw_bytes_cons, ?len_cons; lia.
Qed.

Lemma raw_slices_len_le args : len (raw_slices args) <= len args.
Proof.
  induction args as [|a args IH]; [reflexivity|].
  unfold raw_slices in *. cbn [flat_map]. destruct (a_value a); cbn [app]; rewrite ?len_cons; lia.
Qed.

Lemma raw_slices_small args bound :
  args_floor args <= bound -> forallb (fun s : list byte => len s <=? bound) (raw_slices args) = true.
Proof.
  induction args as [|a args IH]; intros H; [reflexivity|].
  unfold raw_slices in *. cbn [flat_map args_floor] in *. unfold arg_floor in H.
  destruct (a_value a); cbn [val_floor app forallb] in *; try (apply IH; lia).
  rewrite IH by lia. destruct (N.leb_spec (len bs) bound); [reflexivity | lia].
Qed.

(* ---------- payload ---------- *)
Lemma dlt_payload_wf e i ext pl p rest :
  wf_opt wf_ext ext = true ->
  dlt_payload e i (verbose_of ext) pl (noar_of ext) (option_map e_mtype ext) = POk p rest ->
  pl <= 65535 ->
  len (payload_bytes e p) = pl ->
  wf_kind ext p = true.
Proof.
  intros Wx H Hpl Hlen. apply dlt_payload_inv in H as [_ H].
  (* verbose payloads: the arguments fill the payload slice, NOAR is their number *)
  assert (C : forall args, verbose_of ext = true -> args_facts (N.to_nat (noar_of ext)) pl args ->
                exists x, ext = Some x /\ e_verbose x = true /\ len args = e_noar x /\ e_noar x <= 255 /\
                          args_floor args <= pl /\ forallb wf_arg args = true).
  { intros args Hv (Hn & Fk & _ & Wk). destruct ext as [x|]; [|discriminate Hv]. cbn [verbose_of noar_of wf_opt] in *.
    unfold wf_ext in Wx. apply andb_true_iff in Wx as [Wx _]. apply andb_true_iff in Wx as [Wx _].
    apply andb_true_iff in Wx as [Hnoar _]. apply N.ltb_lt in Hnoar.
    exists x. split; [reflexivity|]. split; [exact Hv|]. split; [unfold len; lia|]. split; [lia|].
    split; [exact Fk | exact (Wk Hpl)]. }
  destruct p as [args|id bs|ct bs|sl].
  - destruct H as (Hv & Hm & Hc). destruct (C _ Hv Hc) as (x & -> & Ev & Ln & Hn & _ & W).
    cbn [wf_kind option_map opt_is] in *. rewrite Ev, Hm, W, <- Ln, N.eqb_refl.
    destruct (N.leb_spec (len args) 255); [reflexivity | lia].
  - destruct H as (Hv & Hm & Hid). apply N.ltb_lt in Hid.
    destruct ext as [x|]; cbn [wf_kind verbose_of option_map opt_is] in *; [|exact Hid].
    now rewrite Hv, Hm, Hid.
  - destruct H as (Hv & Hm & Hct). destruct ext as [x|]; [|discriminate Hm].
    cbn [wf_kind verbose_of option_map opt_is] in *. now rewrite Hv, Hm, Hct.
  - destruct H as (Hv & Hm & args & Hc & ->). destruct (C _ Hv Hc) as (x & -> & Ev & Ln & Hn & F & _).
    cbn [wf_kind option_map opt_is] in *. rewrite Ev, Hm.
    pose proof (nw_count e args) as Cn. pose proof (raw_slices_len_le args) as Lr.
    fold (nw_bytes e (raw_slices args)) in Hlen.
    rewrite (raw_slices_small args 65535) by lia.
    destruct (N.eqb_spec (e_noar x) (len (raw_slices args))); [|lia].
    destruct (N.leb_spec (len (raw_slices args)) 255); [reflexivity | lia].
Qed.

(* ---------- the whole message ---------- *)
Theorem parsed_wf : forall bs f sh m rest,
  dlt_message bs f sh = POk (Item m) rest ->
  len (message_bytes m) = (if sh then 16 else 0) + overall_length (m_header m) ->
  wf_message m = true /\ has_storage m = sh.
Proof.
  intros bs f sh m rest H Hlen.
  apply dlt_message_item_inv in H as (Hsh & Ws & Wh & He & Wx & Hraw & ah & Ep).
  pose proof (len_message_bytes_wf m Ws Wh He Wx) as L. rewrite Hsh in L.
  assert (Ov : overall_length (m_header m) = overall_length_raw (m_header m))
    by (unfold overall_length; apply N.mod_small; lia).
  assert (Hp : len (payload_bytes (h_endian (m_header m)) (m_payload m)) = h_payload_length (m_header m)) by lia.
  assert (Hpl : h_payload_length (m_header m) <= 65535) by (unfold overall_length_raw in Hraw; lia).
  split; [|exact Hsh].
  unfold wf_message, len_ok.
  rewrite Ws, Wh, Wx, (dlt_payload_wf _ _ _ _ _ _ Wx Ep Hpl Hp), He, Bool.eqb_reflx, Hp, N.eqb_refl.
  destruct (N.leb_spec (overall_length_raw (m_header m)) 65535); [reflexivity | lia].
Qed.
