(* Proofs/RealValue.v — C18: Argument::to_real_value (Model/Float.v): when a value is produced, the result as
   the wrapped sum, that the pre-repair `+` panics iff it overflows, and exactness of int -> f64 below 2^53
   and of f32 -> f64. *)
From Coq Require Import Lia ZifyBool ZifyN Floats.SpecFloat.
From DltV.Model Require Import Bytes RustInt Dlt Float.
Open Scope N_scope.

(* ---------- when a value is produced ---------- *)

Lemma value_as_f64_is_some v :
  (match v with
   | VI8 _ | VI16 _ | VI32 _ | VI64 _ | VU8 _ | VU16 _ | VU32 _ | VU64 _ => true
   | _ => false
   end) = match value_as_f64 v with Some _ => true | None => false end.
Proof. now destruct v. Qed.

Lemma to_real_value_nf a :
  to_real_value a = if is_fixed_point (ti_kind_of (a_ti a)) then log_v a else Val None.
Proof. unfold to_real_value, log_v. destruct (ti_kind_of (a_ti a)), (a_fp a); reflexivity. Qed.
Lemma to_real_value_pinned_nf a :
  to_real_value_pinned a = if is_fixed_point (ti_kind_of (a_ti a)) then log_v_pinned a else Val None.
Proof. unfold to_real_value_pinned, log_v_pinned. destruct (ti_kind_of (a_ti a)), (a_fp a); reflexivity. Qed.

Lemma to_real_value_none a :
  real_applicable a = false -> to_real_value a = Val None.
Proof.
  rewrite to_real_value_nf. unfold real_applicable, log_v. intros H.
  destruct (is_fixed_point (ti_kind_of (a_ti a))); [|reflexivity].
  destruct (a_fp a); [|reflexivity]. cbn [andb] in H. rewrite value_as_f64_is_some in H.
  now destruct (value_as_f64 (a_value a)).
Qed.

Lemma to_real_value_some a :
  real_applicable a = true -> exists n, to_real_value a = Val (Some n) /\ n < 2 ^ 64.
Proof.
  unfold real_applicable. intros H.
  apply andb_true_iff in H. destruct H as [H Hv].
  apply andb_true_iff in H. destruct H as [Hk Hf].
  rewrite to_real_value_nf, Hk. unfold log_v, wrap.
  destruct (a_fp a) as [fp|]; [|discriminate Hf].
  rewrite value_as_f64_is_some in Hv. destruct (value_as_f64 (a_value a)) as [f|]; [|discriminate Hv].
  eexists. split; [reflexivity|]. apply N.mod_lt. discriminate.
Qed.

Lemma to_real_value_none_iff a :
  to_real_value a = Val None <-> real_applicable a = false.
Proof.
  split; [|apply to_real_value_none].
  destruct (real_applicable a) eqn:E; [|reflexivity].
  destruct (to_real_value_some a E) as [n [Hn _]]. rewrite Hn. discriminate.
Qed.

Lemma to_real_value_applicable a fp v :
  is_fixed_point (ti_kind_of (a_ti a)) = true -> a_fp a = Some fp ->
  value_as_f64 (a_value a) = Some v ->
  to_real_value a = Val (Some (wrap 64 (scaled_u64 fp v + off_u64 fp))).
Proof. intros Hk Hf Hv. rewrite to_real_value_nf, Hk. unfold log_v. now rewrite Hf, Hv. Qed.

Lemma to_real_value_pinned_applicable a fp v :
  is_fixed_point (ti_kind_of (a_ti a)) = true -> a_fp a = Some fp ->
  value_as_f64 (a_value a) = Some v ->
  to_real_value_pinned a =
  chk_bind (add_chk 64 (scaled_u64 fp v) (off_u64 fp)) (fun r => Val (Some r)).
Proof. intros Hk Hf Hv. rewrite to_real_value_pinned_nf, Hk. unfold log_v_pinned. now rewrite Hf, Hv. Qed.

(* ---------- the integer part: saturating cast, sign extension, wrapping add ---------- *)

Lemma pow64_N : 2 ^ 64 = 18446744073709551616.
Proof. reflexivity. Qed.

Lemma f64_to_u64_trunc p t :
  sf_trunc p = Some t -> (0 <= t < 2 ^ 64)%Z -> f64_to_u64 p = Z.to_N t.
Proof.
  intros Ht Hr. unfold f64_to_u64. rewrite Ht. unfold u64_max.
  destruct (Z.ltb_spec t 0) as [Hneg|_]; [lia|].
  destruct (Z.ltb_spec (Z.of_N 18446744073709551615) t) as [Hbig|_]; [lia|].
  reflexivity.
Qed.

Lemma f64_to_u64_bound p : f64_to_u64 p < 2 ^ 64.
Proof.
  rewrite pow64_N. unfold f64_to_u64, u64_max.
  destruct (sf_trunc p) as [t|].
  - destruct (Z.ltb_spec t 0) as [Hneg|Hpos]; [lia|].
    destruct (Z.ltb_spec (Z.of_N 18446744073709551615) t) as [Hbig|Hsm]; lia.
  - destruct p as [s|[|]| |s m e]; lia.
Qed.

Lemma of_signed64 z : of_signed 64 z = Z.to_N (z mod 18446744073709551616).
Proof. reflexivity. Qed.

Lemma of_signed64_nonneg z : (0 <= z < 2 ^ 64)%Z -> of_signed 64 z = Z.to_N z.
Proof. intros H. rewrite of_signed64. rewrite Z.mod_small by lia. reflexivity. Qed.

Lemma of_signed64_neg z : (- 2 ^ 64 <= z < 0)%Z -> of_signed 64 z = Z.to_N (z + 2 ^ 64).
Proof.
  intros H. rewrite of_signed64. f_equal.
  symmetry. apply (Z.mod_unique z 18446744073709551616 (-1)); lia.
Qed.

Lemma wrap_sum t off :
  (0 <= t)%Z -> (- 2 ^ 63 <= off)%Z -> (0 <= t + off < 2 ^ 63)%Z ->
  wrap 64 (Z.to_N t + of_signed 64 off) = Z.to_N (t + off).
Proof.
  intros Ht Hlo Hs. unfold wrap. rewrite pow64_N.
  destruct (Z.ltb_spec off 0) as [Hneg|Hpos].
  - rewrite of_signed64_neg by lia.
    rewrite <- Z2N.inj_add by lia.
    replace (t + (off + 2 ^ 64))%Z with (t + off + 18446744073709551616)%Z by lia.
    rewrite Z2N.inj_add by lia.
    change (Z.to_N 18446744073709551616) with (1 * 18446744073709551616).
    rewrite N.mod_add by discriminate.
    apply N.mod_small. lia.
  - rewrite of_signed64_nonneg by lia.
    rewrite <- Z2N.inj_add by lia.
    apply N.mod_small. lia.
Qed.

(* ---------- the code before the repair ([to_real_value_pinned]): it panics exactly when the checked `+` overflows ---------- *)

Lemma to_real_value_pinned_panic_iff a fp v :
  is_fixed_point (ti_kind_of (a_ti a)) = true -> a_fp a = Some fp ->
  value_as_f64 (a_value a) = Some v ->
  (to_real_value_pinned a = Panic <-> 2 ^ 64 <= scaled_u64 fp v + off_u64 fp).
Proof.
  intros Hk Hf Hv. rewrite (to_real_value_pinned_applicable a fp v Hk Hf Hv).
  unfold add_chk, chk_bind. rewrite pow64_N.
  destruct (N.ltb_spec (scaled_u64 fp v + off_u64 fp) 18446744073709551616) as [Hlt|Hge].
  - split; [discriminate|lia].
  - split; [intros _; exact Hge|reflexivity].
Qed.

(* ---------- the conversions that must be exact are exact ---------- *)

Lemma shift_pos_shiftl k m : Zpos (shift_pos k m) = Z.shiftl (Zpos m) (Zpos k).
Proof.
  unfold shift_pos. cbn [Z.shiftl]. revert m.
  induction k as [|k IH] using Pos.peano_ind; intros m.
  - reflexivity.
  - rewrite !Pos.iter_succ. rewrite <- IH. reflexivity.
Qed.

Lemma digits2_shift_pos k m : digits2_pos (shift_pos k m) = (digits2_pos m + k)%positive.
Proof.
  unfold shift_pos. induction k as [|k IH] using Pos.peano_ind.
  - cbn [Pos.iter digits2_pos]. lia.
  - rewrite Pos.iter_succ. cbn [digits2_pos]. rewrite IH. lia.
Qed.

Lemma digits2_bounds m :
  (2 ^ (Zpos (digits2_pos m) - 1) <= Zpos m < 2 ^ Zpos (digits2_pos m))%Z.
Proof.
  induction m as [m IH|m IH|]; cbn [digits2_pos].
  - rewrite Pos2Z.inj_succ.
    replace (Z.succ (Zpos (digits2_pos m)) - 1)%Z with (Z.succ (Zpos (digits2_pos m) - 1))%Z by lia.
    rewrite !Z.pow_succ_r by lia. lia.
  - rewrite Pos2Z.inj_succ.
    replace (Z.succ (Zpos (digits2_pos m)) - 1)%Z with (Z.succ (Zpos (digits2_pos m) - 1))%Z by lia.
    rewrite !Z.pow_succ_r by lia. lia.
  - cbn. lia.
Qed.

Lemma digits2_le m k : (0 <= k)%Z -> (Zpos m < 2 ^ k)%Z -> (Zpos (digits2_pos m) <= k)%Z.
Proof.
  intros Hk Hm. destruct (Z.le_gt_cases (Zpos (digits2_pos m)) k) as [H|H]; [exact H|].
  pose proof (digits2_bounds m) as [Hlo _].
  assert (Hle : (2 ^ k <= 2 ^ (Zpos (digits2_pos m) - 1))%Z) by (apply Z.pow_le_mono_r; lia).
  lia.
Qed.

Lemma shr_fexp_noop m e l :
  (fexp 53 1024 (Zdigits2 m + e) - e = 0)%Z ->
  shr_fexp 53 1024 m e l = (shr_record_of_loc m l, e).
Proof. intros H. unfold shr_fexp. rewrite H. reflexivity. Qed.

Lemma binary_round_aux_canonical s m e :
  fexp 53 1024 (Zpos (digits2_pos m) + e) = e -> (e <= 971)%Z ->
  binary_round_aux 53 1024 s (Zpos m) e loc_Exact = S754_finite s m e.
Proof.
  intros Hf He. unfold binary_round_aux.
  rewrite shr_fexp_noop by (cbn [Zdigits2]; lia).
  cbv beta iota. cbn [shr_record_of_loc shr_m loc_of_shr_record round_nearest_even].
  rewrite shr_fexp_noop by (cbn [Zdigits2]; lia).
  cbv beta iota. cbn [shr_record_of_loc shr_m].
  destruct (Zle_bool e (1024 - 53)) eqn:Hb; [reflexivity|]. apply Z.leb_gt in Hb. lia.
Qed.

Lemma bounded_canonical m e :
  fexp 53 1024 (Zpos (digits2_pos m) + e) = e -> (e <= 971)%Z -> bounded 53 1024 m e = true.
Proof.
  intros Hf He. unfold bounded, canonical_mantissa. rewrite Hf.
  unfold Zeq_bool. rewrite Z.compare_refl.
  destruct (Zle_bool e (1024 - 53)) eqn:Hb; [reflexivity|]. apply Z.leb_gt in Hb. lia.
Qed.

(* [binary_round] to binary64 of a number that fits: no rounding, only the mantissa is
   shifted left; the result is the canonical binary64 representation of the same number *)
Lemma binary_round_exact s m e :
  (Zpos (digits2_pos m) <= 53)%Z -> (-1074 <= e)%Z -> (Zpos (digits2_pos m) + e <= 1024)%Z ->
  exists m' e', binary_round prec64 emax64 s m e = S754_finite s m' e' /\
    (e' <= e)%Z /\ Zpos m' = Z.shiftl (Zpos m) (e - e') /\
    bounded prec64 emax64 m' e' = true.
Proof.
  intros Hd He Hde. unfold prec64, emax64.
  unfold binary_round, shl_align.
  set (d := digits2_pos m) in *.
  set (e1 := fexp 53 1024 (Zpos d + e)).
  assert (He1 : e1 = Z.max (Zpos d + e - 53) (-1074)) by reflexivity.
  destruct (e1 - e)%Z as [|k|k] eqn:Ek.
  - (* already canonical *)
    assert (Ee : e1 = e) by lia.
    exists m, e. cbv beta iota. rewrite binary_round_aux_canonical by (fold d; fold e1; lia).
    split; [reflexivity|]. split; [lia|]. split.
    + rewrite Z.sub_diag. reflexivity.
    + apply bounded_canonical; fold d; fold e1; lia.
  - lia.
  - (* shift left by k = e - e1 *)
    assert (Ee : e = (e1 + Zpos k)%Z) by lia.
    assert (Hdk : digits2_pos (shift_pos k m) = (d + k)%positive) by apply digits2_shift_pos.
    assert (Hf : fexp 53 1024 (Zpos (digits2_pos (shift_pos k m)) + e1) = e1).
    { rewrite Hdk, Pos2Z.inj_add.
      replace (Zpos d + Zpos k + e1)%Z with (Zpos d + e)%Z by lia. reflexivity. }
    exists (shift_pos k m), e1. cbv beta iota. rewrite binary_round_aux_canonical by (assumption || lia).
    split; [reflexivity|]. split; [lia|]. split.
    + rewrite shift_pos_shiftl. f_equal. lia.
    + apply bounded_canonical; [assumption|lia].
Qed.

Lemma sf_trunc_shift s m e m' e' :
  (e' <= e)%Z -> Zpos m' = Z.shiftl (Zpos m) (e - e') ->
  sf_trunc (S754_finite s m' e') = sf_trunc (S754_finite s m e).
Proof.
  intros He Hm. cbn [sf_trunc]. rewrite Hm. rewrite Z.shiftl_shiftl by lia.
  do 3 f_equal. lia.
Qed.

(* `n as f64` is exact for |n| < 2^53 (so for every 8/16/32-bit value) *)
Lemma binary_round_int_exact s m :
  (Zpos m < 2 ^ 53)%Z -> sf_trunc (binary_round prec64 emax64 s m 0) = Some (cond_Zopp s (Zpos m)).
Proof.
  intros Hz. assert (Hd : (Zpos (digits2_pos m) <= 53)%Z) by (apply digits2_le; lia).
  destruct (binary_round_exact s m 0 Hd) as [m' [e' [Hr [He [Hm _]]]]]; [lia|lia|].
  rewrite Hr. rewrite (sf_trunc_shift s m 0 m' e' He Hm). reflexivity.
Qed.

Lemma f32_of_bits_finite b s m e :
  f32_of_bits b = S754_finite s m e -> (Zpos m < 2 ^ 24)%Z /\ (-149 <= e <= 104)%Z.
Proof.
  unfold f32_of_bits.
  assert (Hf : b mod 2 ^ 23 < 2 ^ 23) by (apply N.mod_lt; discriminate).
  assert (He : (b / 2 ^ 23) mod 2 ^ 8 < 2 ^ 8) by (apply N.mod_lt; discriminate).
  set (f := b mod 2 ^ 23) in *. set (ex := (b / 2 ^ 23) mod 2 ^ 8) in *.
  change (2 ^ 23) with 8388608 in Hf. change (2 ^ 8) with 256 in He.
  destruct (N.eqb_spec ex 0) as [E0|E0].
  - destruct f as [|p] eqn:Ef; intros H; inversion H; subst. lia.
  - destruct (N.eqb_spec ex 255) as [E1|E1].
    + destruct (f =? 0); discriminate.
    + intros H; inversion H; subst. pose proof (N.succ_pos_spec (f + 8388607)) as Hs. lia.
Qed.

Lemma f32_to_f64_nonfinite b :
  (forall s m e, f32_of_bits b <> S754_finite s m e) -> f32_to_f64 (f32_of_bits b) = f32_of_bits b.
Proof. intros H. destruct (f32_of_bits b) as [s|s| |s m e]; try reflexivity. exfalso. eapply H. reflexivity. Qed.
