(* Proofs/FibexTerm.v — termination, fuel monotonicity and panic freedom of the FIBEX loader model (C12),
   the fuel-free reading [run_*] of its loops, and the refutation of C12 for the pre-repair loops. *)
From Coq Require Import Lia ZifyBool ZifyN ZifyNat.
From Coq.Strings Require Import Ascii String.
From DltV.Model Require Import Bytes RustInt Dlt Fibex.
Open Scope N_scope.

Lemma attr_matches_no_panic (key name : bstr) : attr_matches key name <> Panic.
Proof.
  unfold attr_matches.
  destruct (bytes_eqb key name) eqn:Heq; [discriminate|].
  destruct (len name <? len key) eqn:Hlt; [|discriminate].
  unfold sub_chk.
  destruct (len name <=? len key) eqn:H1; [|lia].
  cbn [chk_bind].
  destruct (1 <=? len key - len name) eqn:H2; [|lia].
  cbn [chk_bind].
  destruct (nth_error key (N.to_nat (len key - len name - 1))) as [b|] eqn:Hn.
  - destruct (b2n b =? 58); [|discriminate].
    destruct (len key - len name <=? len key) eqn:H3; [discriminate|lia].
  - exfalso. apply nth_error_None in Hn. unfold len in *. lia.
Qed.

Lemma attr_opt_no_panic (attrs : list xattr) (name : bstr) : attr_opt attrs name <> APanic.
Proof.
  induction attrs as [|a attrs IH]; cbn [attr_opt]; [discriminate|].
  destruct a as [|key value]; [discriminate|].
  destruct (attr_matches key name) as [[|]|] eqn:Hm.
  - destruct value; discriminate.
  - exact IH.
  - exfalso. exact (attr_matches_no_panic _ _ Hm).
Qed.

Lemma attr_no_panic (attrs : list xattr) (name : bstr) : attr attrs name <> APanic.
Proof.
  unfold attr. pose proof (attr_opt_no_panic attrs name) as H.
  destruct (attr_opt attrs name) as [[v|]| |]; try discriminate. contradiction.
Qed.

(* the measure of every loop *)
Definition pending (r : reader) : nat := length (r_events r).

(* [n] = number of pending XML events before the step *)
Definition step_ok (n : nat) (s : step) : Prop :=
  match s with
  | SCont r' => (pending r' < n)%nat
  | SRet e r' => e <> EEof /\ (pending r' < n)%nat
  | SErr => True
  | SPanic => False
  end.

Lemma read_text_len (evs : list xevent) : (length (snd (read_text evs)) <= length evs)%nat.
Proof.
  destruct evs as [|e rest]; cbn; [lia|].
  destruct e as [| | |[t|]| |]; cbn; lia.
Qed.

Lemma read_usize_len (evs : list xevent) : (length (snd (read_usize evs)) <= length evs)%nat.
Proof.
  unfold read_usize. pose proof (read_text_len evs) as H.
  destruct (read_text evs) as [[t|] rest]; cbn in *; lia.
Qed.

Lemma text_into_ok n setter rest r :
  (forall v r0, r_events (setter v r0) = r_events r0) ->
  (length rest < n)%nat -> step_ok n (text_into setter rest r).
Proof.
  intros Hs Hn. unfold text_into. pose proof (read_text_len rest) as H.
  destruct (read_text rest) as [[t|] rest']; cbn in *; [|exact I].
  unfold pending. rewrite Hs. cbn. lia.
Qed.

Lemma usize_into_ok n setter rest r :
  (forall v r0, r_events (setter v r0) = r_events r0) ->
  (length rest < n)%nat -> step_ok n (usize_into setter rest r).
Proof.
  intros Hs Hn. unfold usize_into. pose proof (read_usize_len rest) as H.
  destruct (read_usize rest) as [[t|] rest']; cbn in *; [|exact I].
  unfold pending. rewrite Hs. cbn. lia.
Qed.

Lemma attr_into_ok n a k :
  a <> APanic -> (forall v, step_ok n (k v)) -> step_ok n (attr_into a k).
Proof. intros Ha Hk. destruct a; cbn; [apply Hk|exact I|contradiction]. Qed.

Lemma attr_ok_ok n a k :
  a <> APanic -> (forall v, step_ok n (k v)) -> step_ok n (attr_ok a k).
Proof. intros Ha Hk. destruct a; cbn; [apply Hk|apply Hk|contradiction]. Qed.

Lemma need_ok {A} n (o : option A) k :
  (forall v, step_ok n (k v)) -> step_ok n (need o k).
Proof. intros Hk. destruct o; cbn; [apply Hk|exact I]. Qed.

(* a leaf of an arm: SCont / SRet of a reader whose events are [rest] *)
Ltac step_leaf := cbn; first [lia | split; [discriminate|lia]].

Lemma start_arm_ok n name attrs rest r :
  (length rest < n)%nat -> step_ok n (start_arm name attrs rest r).
Proof.
  intros Hn. unfold start_arm, id_attr, id_ref_attr.
  destruct (classify name);
    try (apply text_into_ok; [reflexivity|exact Hn]);
    try (apply usize_into_ok; [reflexivity|exact Hn]);
    try (apply attr_into_ok; [apply attr_no_panic|intros v; step_leaf]);
    try (apply attr_ok_ok; [apply attr_no_panic|intros v; step_leaf]);
    try step_leaf.
  (* T_DESC *)
  pose proof (read_text_len rest) as H.
  destruct (read_text rest) as [t rest']. cbn in *. lia.
Qed.

Lemma empty_arm_ok n name attrs rest r :
  (length rest < n)%nat -> step_ok n (empty_arm name attrs rest r).
Proof.
  intros Hn. unfold empty_arm, id_attr, id_ref_attr.
  destruct (classify name);
    try (apply attr_into_ok; [apply attr_no_panic|intros v; step_leaf]);
    try (apply attr_ok_ok; [apply attr_no_panic|intros v; step_leaf]);
    try step_leaf.
Qed.

Lemma end_arm_ok n name rest r :
  (length rest < n)%nat -> step_ok n (end_arm name rest r).
Proof.
  intros Hn. unfold end_arm.
  destruct (classify name); repeat (apply need_ok; intros ?); step_leaf.
Qed.

Lemma read_event_step_ok (r : reader) :
  read_event_step r = SRet EEof r \/ step_ok (pending r) (read_event_step r).
Proof.
  unfold read_event_step, pending.
  destruct (r_events r) as [|e rest] eqn:He; [left; reflexivity|right].
  destruct e as [name attrs|name attrs|name|t| |].
  - apply start_arm_ok. cbn. lia.
  - apply empty_arm_ok. cbn. lia.
  - apply end_arm_ok. cbn. lia.
  - cbn. lia.
  - cbn. lia.
  - exact I.
Qed.

Lemma step_cont_len r r' : read_event_step r = SCont r' -> (pending r' < pending r)%nat.
Proof.
  intros H. destruct (read_event_step_ok r) as [E|Hs]; rewrite H in *; [discriminate|exact Hs].
Qed.

Lemma read_event_eof : forall fuel r, r_events r = [] -> read_event (S fuel) r = ROk (EEof, r).
Proof. intros fuel r H. cbn [read_event]. unfold read_event_step. rewrite H. reflexivity. Qed.

(* [within size n ef fuel x]: a run started with [n] pending events, [ef] units of fuel for each
   read_event and [fuel] for the loop itself does not panic, leaves at most [n] events, and runs
   out of fuel only if one of the two was not above [n] *)
Definition within {A} (size : A -> nat) (n ef fuel : nat) (x : res A) : Prop :=
  match x with
  | ROk a => (size a <= n)%nat
  | RErr => True
  | RPanic => False
  | RFuel => (ef <= n \/ fuel <= n)%nat
  end.

Definition left_over {A} (x : A * reader) : nat := pending (snd x).

Lemma within_step {A} (size : A -> nat) n n' ef fuel x :
  (n' < n)%nat -> within size n' ef fuel x -> within size n ef (S fuel) x.
Proof. intros Hn. destruct x; cbn; lia. Qed.

Definition fuel_le {A} (a b : res A) : Prop := a = RFuel \/ a = b.

Lemma enough_fuel {A} (size : A -> nat) n ef fuel (x y : res A) :
  fuel_le x y -> within size n ef fuel x -> (n < ef)%nat -> (n < fuel)%nat -> y = x.
Proof. intros [->| ->] H He Hf; [cbn in H; lia|reflexivity]. Qed.

Lemma read_event_inv : forall fuel r,
  match read_event fuel r with
  | ROk (e, r') => (pending r' <= pending r)%nat /\ (e <> EEof -> (pending r' < pending r)%nat)
  | RErr => True
  | RPanic => False
  | RFuel => (fuel <= pending r)%nat
  end.
Proof.
  induction fuel as [|f IH]; intros r; cbn [read_event]; [lia|].
  destruct (read_event_step_ok r) as [E|Hs]; [rewrite E; split; [lia|congruence]|].
  destruct (read_event_step r) as [r1|e r1| |]; cbn in Hs; try exact Hs.
  - specialize (IH r1). destruct (read_event f r1) as [[e r']| | |]; try exact IH; lia.
  - lia.
Qed.

Lemma read_event_le : forall f1 f2 r, (f1 <= f2)%nat -> fuel_le (read_event f1 r) (read_event f2 r).
Proof.
  induction f1 as [|f1 IH]; intros f2 r H; [left; reflexivity|].
  destruct f2 as [|f2]; [lia|]. cbn [read_event].
  destruct (read_event_step r); try (right; reflexivity). apply IH. lia.
Qed.

Definition run_event (r : reader) : res (event * reader) := read_event (S (pending r)) r.

Lemma read_event_enough ef r : (pending r < ef)%nat -> read_event ef r = run_event r.
Proof.
  intros H. pose proof (read_event_inv (S (pending r)) r) as Hi.
  destruct (read_event_le (S (pending r)) ef r H) as [E|E]; [|symmetry; exact E].
  unfold run_event. rewrite E in Hi. lia.
Qed.

Lemma run_event_eq r :
  run_event r = match read_event_step r with
                | SCont r' => run_event r'
                | SRet e r' => ROk (e, r')
                | SErr => RErr
                | SPanic => RPanic
                end.
Proof.
  unfold run_event at 1. cbn [read_event].
  destruct (read_event_step r) as [r'| | |] eqn:E; try reflexivity.
  apply read_event_enough, step_cont_len, E.
Qed.

Lemma run_event_inv r :
  match run_event r with
  | ROk (e, r') => (pending r' <= pending r)%nat /\ (e <> EEof -> (pending r' < pending r)%nat)
  | RErr => True
  | _ => False
  end.
Proof.
  pose proof (read_event_inv (S (pending r)) r) as H. fold (run_event r) in H.
  destruct (run_event r) as [[e r']| | |]; try exact H. lia.
Qed.

Lemma read_pdu_loop_inv : forall fuel ef r acc,
  within left_over (pending r) ef fuel (read_pdu_loop ef fuel r acc).
Proof.
  induction fuel as [|f IH]; intros ef r acc; cbn [read_pdu_loop]; [right; lia|].
  pose proof (read_event_inv ef r) as H.
  destruct (read_event ef r) as [[e r1]| | |]; [|exact I|exact H|left; exact H].
  destruct H as [Hle Hlt].
  destruct e; try (eapply within_step; [apply Hlt; discriminate|apply IH]).
  - exact Hle.
  - exact I.
Qed.

Lemma read_pdu_loop_le : forall f1 f2 ef1 ef2 r acc, (ef1 <= ef2)%nat -> (f1 <= f2)%nat ->
  fuel_le (read_pdu_loop ef1 f1 r acc) (read_pdu_loop ef2 f2 r acc).
Proof.
  induction f1 as [|f1 IH]; intros f2 ef1 ef2 r acc He H; [left; reflexivity|].
  destruct f2 as [|f2]; [lia|]. cbn [read_pdu_loop].
  destruct (read_event_le ef1 ef2 r He) as [-> | ->]; [left; reflexivity|].
  destruct (read_event ef2 r) as [[[] r1]| | |]; try (right; reflexivity); apply IH; lia.
Qed.

Lemma read_frame_loop_inv : forall fuel ef r acc ext,
  within left_over (pending r) ef fuel (read_frame_loop ef fuel r acc ext).
Proof.
  induction fuel as [|f IH]; intros ef r acc ext; cbn [read_frame_loop]; [right; lia|].
  pose proof (read_event_inv ef r) as H.
  destruct (read_event ef r) as [[e r1]| | |]; [|exact I|exact H|left; exact H].
  destruct H as [Hle Hlt].
  destruct e; try (eapply within_step; [apply Hlt; discriminate|apply IH]).
  - destruct ext as [[[c a] t] i]. exact Hle.
  - exact I.
Qed.

Lemma read_frame_loop_le : forall f1 f2 ef1 ef2 r acc ext, (ef1 <= ef2)%nat -> (f1 <= f2)%nat ->
  fuel_le (read_frame_loop ef1 f1 r acc ext) (read_frame_loop ef2 f2 r acc ext).
Proof.
  induction f1 as [|f1 IH]; intros f2 ef1 ef2 r acc ext He H; [left; reflexivity|].
  destruct f2 as [|f2]; [lia|]. cbn [read_frame_loop].
  destruct (read_event_le ef1 ef2 r He) as [-> | ->]; [left; reflexivity|].
  destruct (read_event ef2 r) as [[[] r1]| | |]; try (right; reflexivity); apply IH; lia.
Qed.

Definition run_pdu (r : reader) (acc : list (N * bstr)) : res (pdu_read_data * reader) :=
  read_pdu_loop (S (pending r)) (S (pending r)) r acc.
Definition run_frame (r : reader) (acc : list (N * bstr)) (ext : frame_ext)
  : res (frame_read_data * reader) :=
  read_frame_loop (S (pending r)) (S (pending r)) r acc ext.

Lemma read_pdu_loop_enough ef fuel r acc :
  (pending r < ef)%nat -> (pending r < fuel)%nat -> read_pdu_loop ef fuel r acc = run_pdu r acc.
Proof.
  intros He Hf.
  eapply enough_fuel; [apply read_pdu_loop_le|apply read_pdu_loop_inv|..]; lia.
Qed.

Lemma read_frame_loop_enough ef fuel r acc ext :
  (pending r < ef)%nat -> (pending r < fuel)%nat ->
  read_frame_loop ef fuel r acc ext = run_frame r acc ext.
Proof.
  intros He Hf.
  eapply enough_fuel; [apply read_frame_loop_le|apply read_frame_loop_inv|..]; lia.
Qed.

Lemma run_pdu_len r acc p r' : run_pdu r acc = ROk (p, r') -> (pending r' <= pending r)%nat.
Proof.
  intros H. pose proof (read_pdu_loop_inv (S (pending r)) (S (pending r)) r acc) as Hi.
  fold (run_pdu r acc) in Hi. rewrite H in Hi. exact Hi.
Qed.

Lemma run_frame_len r acc ext p r' :
  run_frame r acc ext = ROk (p, r') -> (pending r' <= pending r)%nat.
Proof.
  intros H. pose proof (read_frame_loop_inv (S (pending r)) (S (pending r)) r acc ext) as Hi.
  fold (run_frame r acc ext) in Hi. rewrite H in Hi. exact Hi.
Qed.

Lemma run_pdu_eq r acc :
  run_pdu r acc =
  match run_event r with
  | ROk (ESignalInstance _ sequence_number signal_ref, r') =>
    run_pdu r' (acc ++ [(sequence_number, signal_ref)])
  | ROk (EPduEnd _ description _, r') => ROk ((description, map snd (sort_by_key acc)), r')
  | ROk (EEof, _) => RErr
  | ROk (_, r') => run_pdu r' acc
  | RErr => RErr
  | RPanic => RPanic
  | RFuel => RFuel
  end.
Proof.
  unfold run_pdu at 1. cbn [read_pdu_loop]. fold (run_event r).
  pose proof (run_event_inv r) as H.
  destruct (run_event r) as [[e r1]| | |]; try reflexivity. destruct H as [_ H].
  destruct e; try reflexivity; apply read_pdu_loop_enough; specialize (H ltac:(discriminate)); lia.
Qed.

Lemma run_frame_eq r acc ext :
  run_frame r acc ext =
  match run_event r with
  | ROk (EPduInstance _ pdu_ref sequence_number, r') =>
    run_frame r' (acc ++ [(sequence_number, pdu_ref)]) ext
  | ROk (EManufacturerExtension message_type message_info application_id context_id, r') =>
    run_frame r' acc (context_id, application_id, message_type, message_info)
  | ROk (EFrameEnd short_name _, r') =>
    let '(c, a, t, i) := ext in
    ROk (mkFRD short_name c a t i (map snd (sort_by_key acc)), r')
  | ROk (EEof, _) => RErr
  | ROk (_, r') => run_frame r' acc ext
  | RErr => RErr
  | RPanic => RPanic
  | RFuel => RFuel
  end.
Proof.
  unfold run_frame at 1. cbn [read_frame_loop]. fold (run_event r).
  pose proof (run_event_inv r) as H.
  destruct (run_event r) as [[e r1]| | |]; try reflexivity. destruct H as [_ H].
  destruct e; try reflexivity; apply read_frame_loop_enough; specialize (H ltac:(discriminate)); lia.
Qed.

Definition nothing_left (g : gathered) : nat := O.

Lemma read_file_loop_inv : forall fuel ef r g,
  within nothing_left (pending r) ef fuel (read_file_loop ef fuel r g).
Proof.
  induction fuel as [|f IH]; intros ef r g; cbn [read_file_loop]; [right; lia|].
  pose proof (read_event_inv ef r) as H.
  destruct (read_event ef r) as [[e r1]| | |]; [|exact I|exact H|left; exact H].
  destruct H as [_ Hlt].
  destruct e; try (eapply within_step; [apply Hlt; discriminate|apply IH]).
  - specialize (Hlt ltac:(discriminate)).
    pose proof (read_pdu_loop_inv ef ef r1 []) as Hp. unfold read_pdu.
    destruct (read_pdu_loop ef ef r1 []) as [[p r2]| | |]; cbn in Hp; [|exact I|exact Hp|left; lia].
    eapply within_step; [|apply IH]. unfold left_over in Hp. cbn in Hp. lia.
  - specialize (Hlt ltac:(discriminate)).
    pose proof (read_frame_loop_inv ef ef r1 [] (None, None, None, None)) as Hp. unfold read_frame.
    destruct (read_frame_loop ef ef r1 [] _) as [[p r2]| | |]; cbn in Hp; [|exact I|exact Hp|left; lia].
    eapply within_step; [|apply IH]. unfold left_over in Hp. cbn in Hp. lia.
  - apply Nat.le_0_l.
Qed.

Lemma read_file_loop_le : forall f1 f2 ef1 ef2 r g, (ef1 <= ef2)%nat -> (f1 <= f2)%nat ->
  fuel_le (read_file_loop ef1 f1 r g) (read_file_loop ef2 f2 r g).
Proof.
  induction f1 as [|f1 IH]; intros f2 ef1 ef2 r g He H; [left; reflexivity|].
  destruct f2 as [|f2]; [lia|]. cbn [read_file_loop].
  destruct (read_event_le ef1 ef2 r He) as [-> | ->]; [left; reflexivity|].
  destruct (read_event ef2 r) as [[[] r1]| | |]; try (right; reflexivity); try (apply IH; lia).
  - unfold read_pdu.
    destruct (read_pdu_loop_le ef1 ef2 ef1 ef2 r1 [] He He) as [-> | ->]; [left; reflexivity|].
    destruct (read_pdu_loop ef2 ef2 r1 []) as [[p r2]| | |]; try (right; reflexivity). apply IH; lia.
  - unfold read_frame.
    destruct (read_frame_loop_le ef1 ef2 ef1 ef2 r1 [] (None, None, None, None) He He) as [-> | ->];
      [left; reflexivity|].
    destruct (read_frame_loop ef2 ef2 r1 [] _) as [[p r2]| | |]; try (right; reflexivity). apply IH; lia.
Qed.

Definition run_file (r : reader) (g : gathered) : res gathered :=
  read_file_loop (S (pending r)) (S (pending r)) r g.

Lemma read_file_loop_enough ef fuel r g :
  (pending r < ef)%nat -> (pending r < fuel)%nat -> read_file_loop ef fuel r g = run_file r g.
Proof.
  intros He Hf.
  eapply enough_fuel; [apply read_file_loop_le|apply read_file_loop_inv|..]; lia.
Qed.

Lemma run_file_eq r g :
  run_file r g =
  match run_event r with
  | ROk (EPduStart id, r') =>
    match run_pdu r' [] with
    | ROk (p, r'') =>
      run_file r'' (mkGathered (g_frames g) (g_pdus g ++ [(id, p)]) (g_signals g) (g_codings g))
    | RErr => RErr | RPanic => RPanic | RFuel => RFuel
    end
  | ROk (EFrameStart id, r') =>
    match run_frame r' [] (None, None, None, None) with
    | ROk (fr, r'') =>
      run_file r'' (mkGathered (g_frames g ++ [(id, fr)]) (g_pdus g) (g_signals g) (g_codings g))
    | RErr => RErr | RPanic => RPanic | RFuel => RFuel
    end
  | ROk (EEof, _) => ROk g
  | ROk (ESignal id coding_ref, r') =>
    run_file r' (mkGathered (g_frames g) (g_pdus g) ((id, coding_ref) :: g_signals g) (g_codings g))
  | ROk (ECoding id base_data_type, r') =>
    run_file r' (mkGathered (g_frames g) (g_pdus g) (g_signals g) ((id, base_data_type) :: g_codings g))
  | ROk (_, r') => run_file r' g
  | RErr => RErr
  | RPanic => RPanic
  | RFuel => RFuel
  end.
Proof.
  unfold run_file at 1. cbn [read_file_loop]. fold (run_event r).
  pose proof (run_event_inv r) as H.
  destruct (run_event r) as [[e r1]| | |]; try reflexivity. destruct H as [_ H].
  destruct e; try reflexivity; specialize (H ltac:(discriminate));
    try (apply read_file_loop_enough; lia).
  - unfold read_pdu. rewrite read_pdu_loop_enough by lia.
    destruct (run_pdu r1 []) as [[p r2]| | |] eqn:E; try reflexivity.
    apply run_pdu_len in E. apply read_file_loop_enough; lia.
  - unfold read_frame. rewrite read_frame_loop_enough by lia.
    destruct (run_frame r1 [] _) as [[p r2]| | |] eqn:E; try reflexivity.
    apply run_frame_len in E. apply read_file_loop_enough; lia.
Qed.

Lemma read_files_inv : forall files ef g,
  within nothing_left (total_events files) ef ef (read_files ef files g).
Proof.
  induction files as [|f t IH]; intros ef g; cbn [read_files total_events]; [apply Nat.le_0_l|].
  destruct f as [|evs]; [exact I|]. cbn [file_events].
  pose proof (read_file_loop_inv ef ef (reader_from_events evs) g) as Hl.
  destruct (read_file_loop ef ef _ g) as [g'| | |]; cbn in Hl; [|exact I|exact Hl|cbn; lia].
  specialize (IH ef g'). unfold within, nothing_left in *. destruct (read_files ef t g'); lia.
Qed.

Lemma read_files_le : forall files ef1 ef2 g, (ef1 <= ef2)%nat ->
  fuel_le (read_files ef1 files g) (read_files ef2 files g).
Proof.
  induction files as [|f t IH]; intros ef1 ef2 g He; cbn [read_files]; [right; reflexivity|].
  destruct f as [|evs]; [right; reflexivity|].
  destruct (read_file_loop_le ef1 ef2 ef1 ef2 (reader_from_events evs) g He He) as [-> | ->];
    [left; reflexivity|].
  destruct (read_file_loop ef2 ef2 _ g); try (right; reflexivity). apply IH, He.
Qed.

Fixpoint run_files (files : list xfile) (g : gathered) : res gathered :=
  match files with
  | [] => ROk g
  | FileMissing :: _ => RErr
  | FileEvents evs :: rest =>
    match run_file (reader_from_events evs) g with
    | ROk g' => run_files rest g'
    | RErr => RErr | RPanic => RPanic | RFuel => RFuel
    end
  end.

Lemma read_files_enough : forall files ef g,
  (total_events files < ef)%nat -> read_files ef files g = run_files files g.
Proof.
  induction files as [|f t IH]; intros ef g H; cbn [read_files run_files]; [reflexivity|].
  destruct f as [|evs]; [reflexivity|]. cbn [total_events file_events] in H.
  rewrite read_file_loop_enough by (unfold pending; cbn; lia).
  destruct (run_file _ g); try reflexivity. apply IH. lia.
Qed.

Lemma load_run files :
  load files = match files with
               | [] => Refused
               | _ :: _ =>
                 match run_files files gathered_empty with
                 | ROk g => match assemble g with Some m => Loaded m | None => Refused end
                 | RErr => Refused
                 | RPanic => LoadPanic
                 | RFuel => OutOfFuel
                 end
               end.
Proof.
  unfold load, load_fuel, read_fibexes. destruct files as [|f t]; [reflexivity|].
  rewrite read_files_enough.
  - destruct (run_files (f :: t) gathered_empty) as [g| | |]; try reflexivity.
    destruct (assemble g); reflexivity.
  - unfold fuel_bound. lia.
Qed.

Lemma load_fuel_inv n files :
  match load_fuel n files with
  | LoadPanic => False
  | OutOfFuel => (n <= total_events files)%nat
  | _ => True
  end.
Proof.
  unfold load_fuel, read_fibexes. destruct files as [|f t]; [exact I|].
  pose proof (read_files_inv (f :: t) n gathered_empty) as H.
  destruct (read_files n (f :: t) gathered_empty) as [g| | |]; cbn [within] in H;
    [destruct (assemble g); exact I|exact I|exact H|lia].
Qed.

Theorem load_terminates : forall files, load_fuel (fuel_bound files) files <> OutOfFuel.
Proof.
  intros files H. pose proof (load_fuel_inv (fuel_bound files) files) as Hi.
  rewrite H in Hi. unfold fuel_bound in Hi. lia.
Qed.

Theorem load_fuel_mono : forall n files r,
  load_fuel n files = r -> r <> OutOfFuel -> forall m, (n <= m)%nat -> load_fuel m files = r.
Proof.
  intros n files r H Hr m Hle. subst r. unfold load_fuel, read_fibexes in *.
  destruct files as [|f t]; [reflexivity|].
  destruct (read_files_le (f :: t) n m gathered_empty Hle) as [E|E]; rewrite E in *;
    [contradiction Hr|]; reflexivity.
Qed.

Theorem load_no_panic : forall n files, load_fuel n files <> LoadPanic.
Proof. intros n files H. pose proof (load_fuel_inv n files) as Hi. rewrite H in Hi. exact Hi. Qed.

Lemma fuel_bound_linear : forall files, fuel_bound files = S (S (total_events files)).
Proof. intros files. reflexivity. Qed.

(* "returns either a model or nothing" *)
Corollary load_model_or_nothing : forall files,
  (exists m, load files = Loaded m /\ gather_fibex_data files = Some m) \/
  (load files = Refused /\ gather_fibex_data files = None).
Proof.
  intros files. unfold gather_fibex_data.
  pose proof (load_fuel_inv (fuel_bound files) files) as H. fold (load files) in H.
  destruct (load files) as [m| | |]; [left; exists m; auto|right; auto|contradiction|].
  unfold fuel_bound in H. lia.
Qed.

(* the pre-repair read_pdu asks again at end of input: it never leaves a PDU that is still open *)
Lemma read_pdu_loop_pinned_eof : forall fuel ef r acc,
  r_events r = [] -> read_pdu_loop_pinned ef fuel r acc = RFuel.
Proof.
  induction fuel as [|f IH]; intros ef r acc H; [reflexivity|].
  cbn [read_pdu_loop_pinned].
  destruct ef as [|ef]; [reflexivity|].
  rewrite (read_event_eof ef r H). apply IH. exact H.
Qed.

Definition pinned_witness : list xfile :=
  [FileEvents [XStart (bs "PDU") [Attr (bs "ID") (Some (bs "x"))]]].

Theorem load_pinned_refuted : exists files, forall fuel, load_pinned fuel files = OutOfFuel.
Proof.
  exists pinned_witness. intros fuel. unfold load_pinned, pinned_witness.
  cbn [read_files_pinned].
  destruct fuel as [|f]; [reflexivity|].
  cbn [read_file_loop_pinned].
  replace (read_event (S f) _) with
    (ROk (EPduStart (bs "x"),
          set_description None (set_type None (set_byte_length None (set_short_name None
            (set_events [] (reader_from_events [XStart (bs "PDU") [Attr (bs "ID") (Some (bs "x"))]])))))))
    by reflexivity.
  unfold read_pdu_pinned. rewrite read_pdu_loop_pinned_eof; reflexivity.
Qed.
