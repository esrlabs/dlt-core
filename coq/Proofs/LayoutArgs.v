(* Proofs/LayoutArgs.v — C02: the streaming field parsers of the model against the total readers of
   Spec/Layout.v.  [agree x y]: a parser result and a reader result on the same input coincide (Ok <-> fits,
   with the same value and rest; Incomplete/Error <-> does not fit); then, argument kind by argument kind,
   agree (dlt_argument e i) (rd_arg e i) for every input. *)
From Coq Require Import Lia ZifyBool ZifyN ZifyNat.
From DltV.Model Require Import Bytes RustInt Utf8 Nom Dlt Parse.
From DltV.Spec Require Import Layout.
From DltV.Spec Require NonVerbose.
From DltV.Proofs Require Import BytesBasics Fields ZString Codes ParseLemmas LayoutBits.
Open Scope N_scope.

Lemma until_nul_eq l : until_nul l = upto_nul l.
Proof. reflexivity. Qed.

(* ---------- fixed-size fields ---------- *)
(* the width dispatchers of parse.rs:444-477 are fields; the 8-bit cases read be_u8/be_i8 whatever the byte order *)
Lemma field_dlt_uint e l :
  field (dlt_uint e l) (int_bytes l) (fun c => NonVerbose.unsigned_value l (get_uint e c)).
Proof.
  destruct l; cbn [dlt_uint int_bytes].
  - apply (field_pmap VU8), field_u8.
  - apply (field_pmap VU16), (field_uint e 2).
  - apply (field_pmap VU32), (field_uint e 4).
  - apply (field_pmap VU64), (field_uint e 8).
  - apply (field_pmap VU128), (field_uint e 16).
Qed.
Lemma field_dlt_sint e l :
  field (dlt_sint e l) (int_bytes l) (fun c => NonVerbose.signed_value l (get_sint e c)).
Proof.
  destruct l; cbn [dlt_sint int_bytes].
  - apply (field_pmap VI8), field_s8.
  - apply (field_pmap VI16), (field_sint e 2).
  - apply (field_pmap VI32), (field_sint e 4).
  - apply (field_pmap VI64), (field_sint e 8).
  - apply (field_pmap VI128), (field_sint e 16).
Qed.
Lemma field_dlt_fint e w :
  field (dlt_fint e w) (float_bytes w) (fun c => NonVerbose.float_value w (get_uint e c)).
Proof.
  destruct w; cbn [dlt_fint float_bytes].
  - apply (field_pmap VF32), (field_uint e 4).
  - apply (field_pmap VF64), (field_uint e 8).
Qed.

(* quantization (4 bytes) and an offset as wide as the value *)
Lemma field_dlt_fixed_point e w : exists f, field (dlt_fixed_point e w) (4 + float_bytes w) f.
Proof.
  unfold dlt_fixed_point. destruct w; eexists.
  - refine (field_bind _ _ _ _ (4 + 0) _ (field_uint e 4) (fun q => field_bind _ _ _ _ _ _ (field_sint e 4) (fun o => field_ret _))).
  - refine (field_bind _ _ _ _ (8 + 0) _ (field_uint e 4) (fun q => field_bind _ _ _ _ _ _ (field_sint e 8) (fun o => field_ret _))).
Qed.

(* ---------- agreement on the same input ---------- *)
Definition agree {A} (x : pres A) (y : option (A * list byte)) : Prop :=
  match x with
  | POk v r => y = Some (v, r)
  | PIncomplete _ => y = None
  | PError => y = None
  | PFailure => False
  | PPanic => False
  end.

Lemma rd_app {A} k (f : list byte -> A) c r : len c = k -> rd k f (c ++ r) = Some (f c, r).
Proof.
  intros H. unfold rd. rewrite len_app. destruct (N.ltb_spec (len c + len r) k); [lia|].
  subst k. now rewrite firstn_len_app, skipn_len_app.
Qed.

Lemma agree_field {A} (p : list byte -> pres A) k f i : field p k f -> agree (p i) (rd k f i).
Proof.
  intros F. unfold rd. destruct (N.ltb_spec (len i) k) as [H|H].
  - destruct (field_short _ _ _ _ F H) as (n & ->). reflexivity.
  - rewrite (field_long _ _ _ _ F H). reflexivity.
Qed.

Lemma agree_bind {A B} (x : pres A) (y : option (A * list byte))
    (f : A -> list byte -> pres B) (g : A -> list byte -> option (B * list byte)) :
  agree x y -> (forall v r, agree (f v r) (g v r)) -> agree (pbind x f) (obind y g).
Proof.
  intros H K. destruct x as [v r| | | |]; cbn [agree pbind] in *; try contradiction; subst y;
    cbn [obind]; [apply K | reflexivity | reflexivity].
Qed.

Lemma agree_pmap {A B} (h : A -> B) (x : pres A) (y : option (A * list byte)) :
  agree x y -> agree (pmap h x) (obind y (fun v r => Some (h v, r))).
Proof. intros H. unfold pmap. apply agree_bind; [exact H | intros; reflexivity]. Qed.

Lemma agree_ret {A} (v : A) i : agree (POk v i) (Some (v, i)).
Proof. reflexivity. Qed.

Lemma agree_opt {A} (c : bool) (p : list byte -> pres A) (g : reader A) i :
  (forall i, agree (p i) (g i)) ->
  agree (if c then pmap Some (p i) else POk None i) (rd_opt c g i).
Proof.
  intros H. unfold rd_opt. destruct c; [|reflexivity]. apply agree_pmap, H.
Qed.

(* ---------- the pieces of an argument ---------- *)
Lemma agree_uint e k i : agree (uint e k i) (rd_uint e (N.of_nat k) i).
Proof. apply agree_field, field_uint. Qed.
Lemma agree_uint2 e i : agree (uint e 2 i) (rd_uint e 2 i).
Proof. apply (agree_uint e 2). Qed.
Lemma agree_sint e k i : agree (sint e k i) (rd_sint e (N.of_nat k) i).
Proof. apply agree_field, field_sint. Qed.
Lemma agree_u8 e i : agree (u8 i) (rd_uint e 1 i).
Proof. apply agree_field, field_u8. Qed.
Lemma agree_zstring size i : agree (zstring size i) (rd_text size i).
Proof. apply agree_field, field_zstring. Qed.
Lemma agree_take n i : agree (take n i) (rd_bytes n i).
Proof. apply agree_field, field_take. Qed.

(* parser and reader of every larger piece are the same sequence of binds over pieces that agree:
   [agree_bind] step by step, [agree_ret] at the end *)
Create HintDb agree discriminated.
#[local] Hint Resolve agree_bind agree_ret agree_uint2 agree_u8 agree_zstring agree_take : agree.

Lemma agree_name e i : agree (dlt_variable_name e i) (rd_name e i).
Proof. unfold dlt_variable_name, rd_name. auto with agree. Qed.

Lemma agree_name_opt e (c : bool) i :
  agree (if c then pmap Some (dlt_variable_name e i) else POk None i) (rd_name_opt e c i).
Proof. apply agree_opt. intros. apply agree_name. Qed.

Lemma agree_name_unit e t i :
  agree (dlt_variable_name_and_unit e t i) (rd_name_unit e (ti_var_info t) i).
Proof.
  unfold dlt_variable_name_and_unit, rd_name_unit. destruct (ti_var_info t); [|reflexivity]. auto 8 with agree.
Qed.

Lemma agree_field_map {A B} (p : list byte -> pres B) k (f : list byte -> A) (h : A -> B) i :
  field p k (fun c => h (f c)) -> agree (p i) (obind (rd k f i) (fun v r => Some (h v, r))).
Proof.
  intros F. replace (obind _ _) with (rd k (fun c => h (f c)) i); [now apply agree_field|].
  unfold rd. now destruct (len i <? k).
Qed.

Lemma agree_unsigned e w i : agree (dlt_uint e w i) (rd_unsigned e w i).
Proof. apply (agree_field_map _ _ _ (NonVerbose.unsigned_value w)), field_dlt_uint. Qed.
Lemma agree_signed e w i : agree (dlt_sint e w i) (rd_signed e w i).
Proof. apply (agree_field_map _ _ _ (NonVerbose.signed_value w)), field_dlt_sint. Qed.
Lemma agree_float e w i : agree (dlt_fint e w i) (rd_float e w i).
Proof. apply (agree_field_map _ _ _ (NonVerbose.float_value w)), field_dlt_fint. Qed.

Lemma agree_fixed e w i : agree (dlt_fixed_point e w i) (rd_fixed e w i).
Proof.
  unfold dlt_fixed_point, rd_fixed. apply agree_bind; [apply (agree_uint e 4)|]. intros q r.
  destruct w; cbn [float_bytes].
  - apply agree_bind; [apply (agree_sint e 4)|]. intros o r'. reflexivity.
  - apply agree_bind; [apply (agree_sint e 8)|]. intros o r'. reflexivity.
Qed.

Lemma int_of_float_width_eq w : int_of_float_width w = float_width_to_type_length w.
Proof. now destruct w. Qed.

(* ---------- one argument, every input ---------- *)
#[local] Hint Resolve agree_name_opt agree_name_unit agree_signed agree_unsigned agree_float agree_fixed : agree.

Theorem agree_arg e i : agree (dlt_argument e i) (rd_arg e i).
Proof.
  unfold dlt_argument, rd_arg, dlt_type_info.
  pose proof (agree_uint e 4 i) as H. change (N.of_nat 4) with 4 in H.
  destruct (uint e 4 i) as [w r| | | |]; cbn [agree] in H; try contradiction; rewrite H;
    cbn [pbind obind agree]; try reflexivity.
  rewrite ti_of_word_decode. destruct (ti_decode w) as [t|]; cbn [pbind agree]; [|reflexivity].
  cbv zeta. destruct (ti_kind_of t); auto 12 with agree.
Qed.

(* ---------- NOAR arguments ---------- *)
Theorem agree_args e n i : agree (count (dlt_argument e) n i) (rd_args e n i).
Proof.
  revert i. induction n as [|n IH]; intros i; cbn [count rd_args]; [reflexivity|].
  auto using agree_arg with agree.
Qed.

Lemma raw_data_eq args : raw_data args = raw_slices args.
Proof. reflexivity. Qed.
