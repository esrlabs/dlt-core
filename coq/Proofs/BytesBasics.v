(* Proofs/BytesBasics.v — elementary facts about [b2n]/[n2b], byte(-list) equality and the
   N-valued length [len].  Bytes are never destructed; everything goes through [Byte.to_N]. *)
From Coq Require Import Lia ZifyBool ZifyN ZifyNat.
From DltV.Model Require Import Bytes.
Open Scope N_scope.

Lemma b2n_lt (b : byte) : b2n b < 256.
Proof.
  unfold b2n. pose proof (Byte.to_N_bounded b) as H. lia.
Qed.

Lemma n2b_b2n (b : byte) : n2b (b2n b) = b.
Proof.
  unfold n2b, b2n. rewrite N.mod_small by (pose proof (Byte.to_N_bounded b); lia).
  rewrite Byte.of_to_N. reflexivity.
Qed.

Lemma b2n_n2b (n : N) : b2n (n2b n) = n mod 256.
Proof.
  unfold n2b, b2n.
  destruct (Byte.of_N (n mod 256)) as [b|] eqn:E.
  - apply Byte.to_of_N in E. exact E.
  - exfalso. apply Byte.of_N_None_iff in E.
    pose proof (N.mod_upper_bound n 256). lia.
Qed.

Lemma b2n_inj (a b : byte) : b2n a = b2n b -> a = b.
Proof.
  intros H. rewrite <- (n2b_b2n a), <- (n2b_b2n b), H. reflexivity.
Qed.

Lemma n2b_small (n : N) : n < 256 -> b2n (n2b n) = n.
Proof. intros H. rewrite b2n_n2b. apply N.mod_small. exact H. Qed.

Lemma b2n_x00 : b2n x00 = 0.
Proof. reflexivity. Qed.

Lemma is_nul_x00 : is_nul x00 = true.
Proof. reflexivity. Qed.

Lemma is_nul_iff (b : byte) : is_nul b = true <-> b = x00.
Proof.
  unfold is_nul. rewrite N.eqb_eq. split.
  - intros H. apply b2n_inj. rewrite H. reflexivity.
  - intros ->. reflexivity.
Qed.

Lemma byte_eqb_eq (a b : byte) : byte_eqb a b = true <-> a = b.
Proof.
  unfold byte_eqb. rewrite N.eqb_eq. split.
  - apply b2n_inj.
  - intros ->. reflexivity.
Qed.

Lemma byte_eqb_refl (a : byte) : byte_eqb a a = true.
Proof. apply byte_eqb_eq. reflexivity. Qed.

Lemma byte_eqb_neq (a b : byte) : byte_eqb a b = false <-> a <> b.
Proof.
  split.
  - intros H E. apply byte_eqb_eq in E. congruence.
  - intros H. destruct (byte_eqb a b) eqn:E; [|reflexivity].
    apply byte_eqb_eq in E. contradiction.
Qed.

Lemma bytes_eqb_eq (a b : list byte) : bytes_eqb a b = true <-> a = b.
Proof.
  revert b. induction a as [|x a IH]; intros [|y b]; cbn [bytes_eqb].
  - split; reflexivity.
  - split; discriminate.
  - split; discriminate.
  - rewrite andb_true_iff, byte_eqb_eq, IH. split.
    + intros [-> ->]. reflexivity.
    + intros E. injection E as -> ->. split; reflexivity.
Qed.

Lemma bytes_eqb_refl (a : list byte) : bytes_eqb a a = true.
Proof. apply bytes_eqb_eq. reflexivity. Qed.

Lemma bytes_eqb_neq : forall a b, bytes_eqb a b = false <-> a <> b.
Proof.
  intros a b. rewrite <- bytes_eqb_eq. destruct (bytes_eqb a b); split; congruence.
Qed.

Lemma bytes_eqb_sym : forall a b, bytes_eqb a b = bytes_eqb b a.
Proof.
  intros a b. destruct (bytes_eqb a b) eqn:E; symmetry.
  - apply bytes_eqb_eq. apply bytes_eqb_eq in E. congruence.
  - apply bytes_eqb_neq. apply bytes_eqb_neq in E. congruence.
Qed.

(* ---------- lists ---------- *)
Lemma firstn_app_exact {A} (a b : list A) n : n = length a -> firstn n (a ++ b) = a.
Proof. intros ->. rewrite firstn_app, Nat.sub_diag, firstn_all. cbn. apply app_nil_r. Qed.
Lemma skipn_app_exact {A} (a b : list A) n : n = length a -> skipn n (a ++ b) = b.
Proof. intros ->. rewrite skipn_app, Nat.sub_diag, skipn_all. reflexivity. Qed.

Lemma skipn_skipn_add {A} (a b : nat) (l : list A) : skipn a (skipn b l) = skipn (b + a) l.
Proof.
  revert l. induction b as [|b IH]; intros l; [reflexivity|].
  destruct l as [|x l]; [cbn [skipn Nat.add]; apply skipn_nil|].
  cbn [skipn Nat.add]. apply IH.
Qed.

(* ---------- [len] ---------- *)
Section Len.
Context {A : Type}.
Implicit Types (l : list A).

Lemma len_nil : len (@nil A) = 0.
Proof. reflexivity. Qed.

Lemma len_cons (a : A) l : len (a :: l) = 1 + len l.
Proof. unfold len. cbn [length]. lia. Qed.

Lemma len_app l1 l2 : len (l1 ++ l2) = len l1 + len l2.
Proof. unfold len. rewrite app_length. lia. Qed.

Lemma len_0_iff l : len l = 0 <-> l = [].
Proof.
  unfold len. destruct l as [|a l]; cbn [length]; split; intros H; try reflexivity; try discriminate; lia.
Qed.

Lemma len_to_nat l : N.to_nat (len l) = length l.
Proof. unfold len. lia. Qed.

Lemma len_firstn (k : nat) l : len (firstn k l) = N.min (N.of_nat k) (len l).
Proof. unfold len. rewrite firstn_length. lia. Qed.

Lemma len_firstn_le (k : nat) l : len (firstn k l) <= N.of_nat k.
Proof. rewrite len_firstn. lia. Qed.

Lemma len_firstn_le_len (k : nat) l : len (firstn k l) <= len l.
Proof. rewrite len_firstn. lia. Qed.

Lemma len_firstn_N (n : N) l : n <= len l -> len (firstn (N.to_nat n) l) = n.
Proof. intros H. rewrite len_firstn. lia. Qed.

Lemma len_skipn (k : nat) l : len (skipn k l) = len l - N.of_nat k.
Proof. unfold len. rewrite skipn_length. lia. Qed.

Lemma len_skipn_N (n : N) l : len (skipn (N.to_nat n) l) = len l - n.
Proof. rewrite len_skipn. lia. Qed.

Lemma len_repeat (a : A) (k : nat) : len (repeat a k) = N.of_nat k.
Proof. unfold len. rewrite repeat_length. reflexivity. Qed.

Lemma len_rev l : len (rev l) = len l.
Proof. unfold len. rewrite rev_length. reflexivity. Qed.

Lemma len_map {B} (f : A -> B) l : len (map f l) = len l.
Proof. unfold len. rewrite map_length. reflexivity. Qed.

Lemma firstn_len_app l1 l2 : firstn (N.to_nat (len l1)) (l1 ++ l2) = l1.
Proof. apply firstn_app_exact, len_to_nat. Qed.

Lemma skipn_len_app l1 l2 : skipn (N.to_nat (len l1)) (l1 ++ l2) = l2.
Proof. apply skipn_app_exact, len_to_nat. Qed.

End Len.
