(* Proofs/Headers.v — the standard and the extended header: written bytes parse back (with any continuation) and every
   proper prefix of them is reported Incomplete with a safe hint. *)
From Coq Require Import Lia ZifyBool ZifyN ZifyNat.
From DltV.Model Require Import Bytes Nom Dlt Parse.
From DltV.Spec Require Import WellFormed.
From DltV.Proofs Require Import Fields Codes Stable Lengths.
Open Scope N_scope.

(* ---------- header-type byte: encode then decode ---------- *)
Definition htyp_fields_check (x : bool) (e : endian) (w s t : bool) (v : N) : bool :=
  let b := htyp_encode x e w s t v in
  (b <? 256) && Bool.eqb (flag b 1) x && endian_eqb (if flag b 2 then BE else LE) e && Bool.eqb (flag b 4) w
  && Bool.eqb (flag b 8) s && Bool.eqb (flag b 16) t && (N.land (N.shiftr b 5) 7 =? v).

Lemma htyp_fields (x : bool) (e : endian) (w s t : bool) (v : N) : v < 8 ->
  let b := htyp_encode x e w s t v in
  b < 256 /\ flag b 1 = x /\ (if flag b 2 then BE else LE) = e /\ flag b 4 = w /\ flag b 8 = s
  /\ flag b 16 = t /\ N.land (N.shiftr b 5) 7 = v.
Proof.
  (* 32 flag combinations, each a table of the 8 versions *)
  assert (C : forall v, v < 8 -> htyp_fields_check x e w s t v = true)
    by (destruct x, e, w, s, t; apply (range_sweep _ 8); reflexivity).
  intros Hv b. specialize (C v Hv). unfold htyp_fields_check in C. fold b in C.
  repeat (apply andb_true_iff in C; destruct C as [C ?]).
  repeat split; try (now apply Bool.eqb_prop); [now apply N.ltb_lt | | now apply N.eqb_eq].
  destruct (flag b 2), e; (reflexivity || discriminate).
Qed.

Lemma put_zstring_eq s : put_zstring s 4 = s ++ repeat x00 (N.to_nat (4 - len s)).
Proof. unfold put_zstring, zeros. f_equal. f_equal. unfold len in *. lia. Qed.
Lemma stable_id s : wf_id s = true -> stable (zstring 4) (put_zstring s 4) s.
Proof.
  intros H. apply wf_id_inv in H as (Hl & Hn & Hv). rewrite put_zstring_eq. now apply stable_zstring.
Qed.

(* ---------- standard header ---------- *)
Lemma header_type_byte_facts h : wf_std h = true ->
  let b := header_type_byte h in
  b < 256 /\ flag b 1 = h_has_ext h /\ (if flag b 2 then BE else LE) = h_endian h
  /\ flag b 4 = is_some (h_ecu h) /\ flag b 8 = is_some (h_session h) /\ flag b 16 = is_some (h_timestamp h)
  /\ N.land (N.shiftr b 5) 7 = h_version h.
Proof.
  intros W. apply wf_std_inv in W as (Hv & _).
  replace (header_type_byte h) with (htyp_encode (h_has_ext h) (h_endian h) (is_some (h_ecu h))
    (is_some (h_session h)) (is_some (h_timestamp h)) (h_version h)); [now apply htyp_fields|].
  unfold header_type_byte, is_some. now destruct (h_ecu h), (h_session h), (h_timestamp h).
Qed.

Lemma all_headers_length_eq h :
  wf_std h = true ->
  calculate_all_headers_length (header_type_byte h) + h_payload_length h = overall_length_raw h.
Proof.
  intros W. destruct (header_type_byte_facts h W) as (_ & F1 & _ & F4 & F8 & F16 & _).
  unfold calculate_all_headers_length, calculate_standard_header_length, overall_length_raw.
  rewrite F1, F4, F8, F16. unfold is_some.
  destruct (h_ecu h), (h_session h), (h_timestamp h), (h_has_ext h); lia.
Qed.

Lemma stable_std_header h :
  wf_std h = true -> overall_length_raw h <= 65535 ->
  stable dlt_standard_header (std_header_bytes h) h.
Proof.
  intros W Hlen. destruct (header_type_byte_facts h W) as (B & F1 & F2 & F4 & F8 & F16 & FV).
  pose proof (all_headers_length_eq h W) as AH.
  apply wf_std_inv in W as (_ & Hm & He & Hs & Ht).
  assert (Ov : overall_length h = overall_length_raw h) by (apply N.mod_small; lia).
  assert (U32 : forall (o : option N) v, wf_opt (fun v => v <? 2 ^ 32) o = true -> o = Some v ->
                stable (uint BE 4) (put_uint BE 4 v) v).
  { intros o v Hv ->. apply stable_uint. rewrite pow256. now apply N.ltb_lt. }
  assert (Id : forall id, h_ecu h = Some id -> stable (zstring 4) (put_zstring id 4) id).
  { intros id E. rewrite E in He. now apply stable_id. }
  unfold dlt_standard_header, std_header_bytes, parse_ecu_id.
  change [n2b (header_type_byte h); n2b (h_mcnt h)] with ([n2b (header_type_byte h)] ++ [n2b (h_mcnt h)]).
  rewrite <- !app_assoc.
  apply (stable_bind u8 _ _ _ (header_type_byte h)); [now apply stable_u8|]. cbv beta.
  apply (stable_bind u8 _ _ _ (h_mcnt h)); [now apply stable_u8|]. cbv beta.
  apply (stable_bind (uint BE 2) _ _ _ (overall_length h));
    [apply stable_u16; lia|]. cbv beta.
  rewrite F4, F8, F16.
  apply (stable_bind _ _ _ _ _ _ (stable_option (zstring 4) (fun id => put_zstring id 4) (h_ecu h) Id)). cbv beta.
  apply (stable_bind _ _ _ _ _ _ (stable_option (uint BE 4) (put_uint BE 4) (h_session h) (fun v => U32 _ v Hs))).
  cbv beta.
  apply (stable_bind_last _ _ _ _ _ (stable_option (uint BE 4) (put_uint BE 4) (h_timestamp h) (fun v => U32 _ v Ht))).
  intros i. destruct (N.ltb_spec (overall_length h) (calculate_all_headers_length (header_type_byte h))); [lia|].
  rewrite FV, F2, F1.
  replace (overall_length h - calculate_all_headers_length (header_type_byte h)) with (h_payload_length h) by lia.
  now destruct h.
Qed.

(* ---------- message-info byte: encode then decode ---------- *)
Definition msin_rt (vb : bool) (t : message_type) : bool :=
  let b := msin_encode t vb in
  (b <? 256) && mtype_eqb (message_type_decode b) t && Bool.eqb (msin_verbose b) vb.

Lemma guarded_sweep (c r : N -> bool) k :
  forallb (fun v => implb (c v) (r v)) (range k) = true -> forall v, v < N.of_nat k -> c v = true -> r v = true.
Proof. intros S v Hv Hc. pose proof (range_sweep _ k S v Hv) as I. cbv beta in I. now rewrite Hc in I. Qed.

Lemma msin_decode_encode t (vb : bool) : wf_mtype t = true ->
  msin_encode t vb < 256 /\ message_type_decode (msin_encode t vb) = t /\ msin_verbose (msin_encode t vb) = vb.
Proof.
  intros H. assert (C : msin_rt vb t = true).
  { destruct t as [[| | | | | |v]|[| | | | |v]|[| | | | | | |v]|[| |v]|mstp mtin]; cbn [wf_mtype wf_log_level] in H.
    (* the named members compute; left are the open ends of the enumerations: the 16 values of MTIN, where canonical *)
    all: try (now destruct vb).
    - apply andb_true_iff in H as [H1 H2]. apply N.ltb_lt in H1. revert v H1 H2.
      destruct vb; apply (guarded_sweep _ _ 16); reflexivity.
    - apply andb_true_iff in H as [H1 H2]. apply N.ltb_lt in H1. revert v H1 H2.
      destruct vb; apply (guarded_sweep _ _ 16); reflexivity.
    - apply andb_true_iff in H as [H2 H1]. apply N.ltb_lt in H1. revert v H1 H2.
      destruct vb; apply (guarded_sweep _ _ 16); reflexivity.
    - apply andb_true_iff in H as [H1 H2]. apply N.ltb_lt in H1. revert v H1 H2.
      destruct vb; apply (guarded_sweep _ _ 16); reflexivity.
    - apply andb_true_iff in H as [H H3]. apply andb_true_iff in H as [H1 H2]. apply N.ltb_lt in H2, H3.
      revert mtin H3. apply (range_sweep _ 16). revert mstp H2 H1.
      destruct vb; apply (guarded_sweep _ _ 8); reflexivity. }
  unfold msin_rt in C. cbv zeta in C. apply andb_true_iff in C as [C C3]. apply andb_true_iff in C as [C1 C2].
  split; [now apply N.ltb_lt|]. split; [now apply mtype_eqb_eq | now apply Bool.eqb_prop].
Qed.

(* ---------- extended header ---------- *)
Lemma stable_ext_header x : wf_ext x = true -> stable dlt_extended_header (ext_header_bytes x) x.
Proof.
  intros H. apply wf_ext_inv in H as (Hn & Ht & Ha & Hc).
  destruct (msin_decode_encode (e_mtype x) (e_verbose x) Ht) as (B & D & V).
  unfold ext_header_bytes, dlt_extended_header.
  change ([n2b (msin_encode (e_mtype x) (e_verbose x)); n2b (e_noar x)] ++ put_zstring (e_apid x) 4 ++ put_zstring (e_ctid x) 4)
    with ([n2b (msin_encode (e_mtype x) (e_verbose x))] ++ [n2b (e_noar x)] ++ put_zstring (e_apid x) 4 ++ put_zstring (e_ctid x) 4).
  rewrite <- (app_nil_r (put_zstring (e_ctid x) 4)).
  apply (stable_bind u8 _ _ _ (msin_encode (e_mtype x) (e_verbose x))); [now apply stable_u8|]. cbv beta.
  apply (stable_bind u8 _ _ _ (e_noar x)); [now apply stable_u8|]. cbv beta.
  apply (stable_bind parse_ecu_id _ _ _ (e_apid x)); [now apply stable_id|]. cbv beta.
  apply (stable_bind parse_ecu_id _ _ _ (e_ctid x)); [now apply stable_id|]. cbv beta.
  rewrite D, V. destruct x; apply stable_ret.
Qed.
