(* Proofs/FibexOrder.v — when does [denote] exist (all PDU references defined), and why the order of
   definition does not matter when ids are unique; then the C11 theorems about layouts (load_layout*,
   load_missing_pdu) from FibexLoad.load_rendered. *)
From Coq Require Import Lia ZifyBool ZifyN ZifyNat.
From Coq Require Import Sorting.Permutation.
From Coq.Strings Require Import Ascii String.
From DltV.Model Require Import Bytes RustInt Dlt Fibex.
From DltV.Spec Require Import FibexSpec.
From DltV.Proofs Require Import BytesBasics FibexSort FibexLookup FibexDenote FibexLoad.
Open Scope N_scope.

Lemma all_some_none {A} (l : list (option A)) : all_some l = None <-> In None l.
Proof.
  induction l as [|[a|] t IH]; cbn [all_some In].
  - split; [discriminate|contradiction].
  - destruct (all_some t) as [r|]; split.
    + discriminate.
    + intros [H|H]; [discriminate|]. apply IH in H. discriminate.
    + intros _. right. apply IH. reflexivity.
    + reflexivity.
  - split; [intros _; left; reflexivity|reflexivity].
Qed.

Lemma all_some_some {A} (l : list (option A)) r : all_some l = Some r -> l = map Some r.
Proof.
  revert r. induction l as [|[a|] t IH]; intros r H; cbn [all_some] in H.
  - injection H as <-. reflexivity.
  - destruct (all_some t) as [r'|]; [|discriminate]. injection H as <-.
    cbn [map]. f_equal. apply IH. reflexivity.
  - discriminate.
Qed.

Lemma all_some_map_some {A} (r : list A) : all_some (map Some r) = Some r.
Proof. induction r as [|a t IH]; cbn [map all_some]; [reflexivity|]. rewrite IH. reflexivity. Qed.

Lemma all_some_map_none {A B} (g : A -> option B) (l : list A) :
  all_some (map g l) = None <-> exists x, In x l /\ g x = None.
Proof. rewrite all_some_none, in_map_iff. split; intros (x & H1 & H2); exists x; auto. Qed.

Lemma all_some_perm {A} (l l' : list (option A)) :
  Permutation l l' ->
  match all_some l, all_some l' with
  | Some r, Some r' => Permutation r r'
  | None, None => True
  | _, _ => False
  end.
Proof.
  induction 1 as [|x l l' _ IH|x y l|l l' l'' _ IH1 _ IH2]; cbn [all_some].
  - constructor.
  - destruct x; [|exact I]. destruct (all_some l), (all_some l'); try exact IH. constructor. exact IH.
  - destruct x, y; try exact I. destruct (all_some l); [apply perm_swap|exact I].
  - destruct (all_some l), (all_some l'), (all_some l''); try contradiction; try exact I.
    eapply Permutation_trans; eassumption.
Qed.

Lemma in_filter_map {A B} (f : A -> option B) (l : list A) (b : B) :
  In b (filter_map f l) <-> exists a, In a l /\ f a = Some b.
Proof.
  induction l as [|x t IH]; cbn [filter_map In]; [split; [contradiction|intros (a & [] & _)]|].
  destruct (f x) as [y|] eqn:E; cbn [In]; rewrite IH; split.
  - intros [<-|(a & Ha & Hf)]; [exists x; auto|exists a; auto].
  - intros (a & [<-|Ha] & Hf); [left; congruence|right; exists a; auto].
  - intros (a & Ha & Hf). exists a. auto.
  - intros (a & [<-|Ha] & Hf); [congruence|exists a; auto].
Qed.

Lemma filter_map_perm {A B} (f : A -> option B) l l' :
  Permutation l l' -> Permutation (filter_map f l) (filter_map f l').
Proof.
  induction 1 as [|x l l' _ IH|x y l|l l' l'' _ IH1 _ IH2]; cbn [filter_map].
  - apply Permutation_refl.
  - destruct (f x); [apply perm_skip|]; exact IH.
  - destruct (f x), (f y); try apply Permutation_refl. apply perm_swap.
  - eapply Permutation_trans; eassumption.
Qed.

Lemma filter_map_ext {A B} (f g : A -> option B) l :
  (forall a, f a = g a) -> filter_map f l = filter_map g l.
Proof.
  intros H. induction l as [|a t IH]; cbn [filter_map]; [reflexivity|]. rewrite H, IH. reflexivity.
Qed.

Lemma existsb_perm {A} (f : A -> bool) l l' : Permutation l l' -> existsb f l = existsb f l'.
Proof.
  induction 1 as [|x l l' _ IH|x y l|l l' l'' _ IH1 _ IH2]; cbn [existsb];
    [reflexivity|congruence|destruct (f x), (f y); reflexivity|congruence].
Qed.

Lemma forallb_perm {A} (f : A -> bool) l l' : Permutation l l' -> forallb f l = forallb f l'.
Proof.
  induction 1 as [|x l l' _ IH|x y l|l l' l'' _ IH1 _ IH2]; cbn [forallb];
    [reflexivity|congruence|destruct (f x), (f y); reflexivity|congruence].
Qed.

Lemma assoc_get_map_none {P V} (key : P -> bstr) (val : P -> V) (l : list P) (r : bstr) :
  assoc_get r (map (fun p => (key p, val p)) l) = None <->
  existsb (fun p => bytes_eqb r (key p)) l = false.
Proof.
  induction l as [|p t IH]; cbn [map assoc_get existsb]; [split; reflexivity|].
  destruct (bytes_eqb r (key p)); cbn [orb]; [split; discriminate|exact IH].
Qed.

Lemma pdu_table_none els r : assoc_get r (pdu_table els) = None <-> pdu_defined els r = false.
Proof. unfold pdu_table, pdu_defined. apply assoc_get_map_none. Qed.

Lemma in_el_pdus els p : In p (el_pdus els) <-> In (ElPdu p) els.
Proof.
  unfold el_pdus. rewrite in_filter_map. split.
  - intros (e & He & Hf). destruct e; try discriminate. injection Hf as <-. exact He.
  - intros H. exists (ElPdu p). auto.
Qed.

Lemma in_el_frames els f : In f (el_frames els) <-> In (ElFrame f) els.
Proof.
  unfold el_frames. rewrite in_filter_map. split.
  - intros (e & He & Hf). destruct e; try discriminate. injection Hf as <-. exact He.
  - intros H. exists (ElFrame f). auto.
Qed.

Lemma pdu_defined_false els r :
  pdu_defined els r = false <-> (forall p, In (ElPdu p) els -> ap_id p <> r).
Proof.
  unfold pdu_defined. split.
  - intros H p Hp E. apply in_el_pdus in Hp. rewrite <- not_true_iff_false in H. apply H.
    apply existsb_exists. exists p. split; [exact Hp|]. subst r. apply bytes_eqb_refl.
  - intros H. apply not_true_iff_false. intros E. apply existsb_exists in E.
    destruct E as (p & Hp & Hb). apply bytes_eqb_eq in Hb. apply (H p); [apply in_el_pdus, Hp|congruence].
Qed.

Lemma in_ordered_refs (l : list (N * bstr)) r : In r (ordered_refs l) <-> In r (map snd l).
Proof.
  unfold ordered_refs. split; intros H.
  - eapply Permutation_in; [apply Permutation_map; apply sort_by_key_perm|exact H].
  - eapply Permutation_in; [apply Permutation_map; apply Permutation_sym; apply sort_by_key_perm|exact H].
Qed.

Lemma denote_frame_none els f :
  denote_frame els f = None <-> exists i, In i (af_pdus f) /\ pdu_defined els (snd i) = false.
Proof.
  unfold denote_frame.
  transitivity (all_some (map (fun r => assoc_get r (pdu_table els)) (ordered_refs (af_pdus f))) = None).
  { destruct (all_some _); split; intros H; try discriminate H; reflexivity. }
  rewrite all_some_map_none. split.
  - intros (r & Hin & Hr). apply (proj1 (in_ordered_refs _ _)), in_map_iff in Hin.
    destruct Hin as (i & <- & Hi).
    exists i. split; [exact Hi|apply pdu_table_none, Hr].
  - intros (i & Hi & Hd). exists (snd i). split; [apply (proj2 (in_ordered_refs _ _)), in_map, Hi|apply pdu_table_none, Hd].
Qed.

Theorem denote_none els :
  denote els = None <->
  exists f i, In (ElFrame f) els /\ In i (af_pdus f) /\ pdu_defined els (snd i) = false.
Proof.
  unfold denote.
  transitivity (all_some (map (fun f => option_map (fun m => (f, m)) (denote_frame els f)) (el_frames els))
                = None).
  { destruct (all_some _); split; intros H; try discriminate H; reflexivity. }
  rewrite all_some_map_none. split.
  - intros (f & Hf & Hn). destruct (denote_frame els f) eqn:E; [discriminate|].
    apply denote_frame_none in E. destruct E as (i & Hi & Hd).
    exists f, i. split; [apply in_el_frames, Hf|auto].
  - intros (f & i & Hf & Hi & Hd). exists f. split; [apply in_el_frames, Hf|].
    rewrite (proj2 (denote_frame_none els f)); [reflexivity|exists i; auto].
Qed.

Lemma refs_defined_denote els : refs_defined els = true -> denote els <> None.
Proof.
  intros H Hn. apply denote_none in Hn. destruct Hn as (f & i & Hf & Hi & Hd).
  unfold refs_defined in H. rewrite forallb_forall in H.
  apply in_el_frames in Hf. specialize (H f Hf). rewrite forallb_forall in H.
  specialize (H i Hi). congruence.
Qed.

Theorem load_consistent (l : layout) :
  l <> [] -> elements_ok (concat l) = true -> refs_defined (concat l) = true ->
  exists m d, gather_fibex_data (files_of l) = Some m /\ denote (concat l) = Some d /\ meta_equiv m d.
Proof.
  intros Hne Hok Hrefs. pose proof (load_rendered l Hne Hok) as H.
  pose proof (refs_defined_denote _ Hrefs) as Hd.
  destruct (denote (concat l)) as [d|]; [|contradiction].
  destruct H as (m & Hm & He). exists m, d. auto.
Qed.

Theorem load_missing_pdu (l : layout) f i :
  l <> [] -> elements_ok (concat l) = true ->
  In (ElFrame f) (concat l) -> In i (af_pdus f) ->
  (forall p, In (ElPdu p) (concat l) -> ap_id p <> snd i) ->
  load (files_of l) = Refused /\ gather_fibex_data (files_of l) = None.
Proof.
  intros Hne Hok Hf Hi Hundef. pose proof (load_rendered l Hne Hok) as H.
  assert (Hd : denote (concat l) = None).
  { apply denote_none. exists f, i. split; [exact Hf|]. split; [exact Hi|].
    apply pdu_defined_false. exact Hundef. }
  rewrite Hd in H. exact H.
Qed.

Lemma assoc_get_some_in_keys {V} k (l : list (bstr * V)) v : assoc_get k l = Some v -> In k (map fst l).
Proof. intros H. apply assoc_get_in in H. apply (in_map fst) in H. exact H. Qed.

Lemma assoc_get_perm {V} (l l' : list (bstr * V)) :
  Permutation l l' -> NoDup (map fst l) -> forall k, assoc_get k l = assoc_get k l'.
Proof.
  induction 1 as [|[kx vx] l l' Hp IH|[kx vx] [ky vy] l|l l' l'' Hp1 IH1 Hp2 IH2]; intros Hnd k.
  - reflexivity.
  - cbn [assoc_get]. destruct (bytes_eqb k kx); [reflexivity|].
    apply IH. cbn [map fst] in Hnd. apply NoDup_cons_iff in Hnd. apply Hnd.
  - cbn [assoc_get].
    destruct (bytes_eqb k ky) eqn:Ey; destruct (bytes_eqb k kx) eqn:Ex; try reflexivity.
    apply bytes_eqb_eq in Ey, Ex. subst kx ky. cbn [map fst] in Hnd.
    apply NoDup_cons_iff in Hnd. destruct Hnd as [Hnd _]. exfalso. apply Hnd. left. reflexivity.
  - rewrite IH1 by exact Hnd. apply IH2.
    eapply Permutation_NoDup; [apply Permutation_map; exact Hp1|exact Hnd].
Qed.

Lemma key_get_perm {V} (l l' : list (frame_key * V)) :
  Permutation l l' -> NoDup (map fst l) -> forall k, key_get k l = key_get k l'.
Proof.
  induction 1 as [|[kx vx] l l' Hp IH|[kx vx] [ky vy] l|l l' l'' Hp1 IH1 Hp2 IH2]; intros Hnd k.
  - reflexivity.
  - cbn [key_get]. destruct (frame_key_eqb k kx); [reflexivity|].
    apply IH. cbn [map fst] in Hnd. apply NoDup_cons_iff in Hnd. apply Hnd.
  - cbn [key_get].
    destruct (frame_key_eqb k ky) eqn:Ey; destruct (frame_key_eqb k kx) eqn:Ex; try reflexivity.
    apply frame_key_eqb_eq in Ey, Ex. subst kx ky. cbn [map fst] in Hnd.
    apply NoDup_cons_iff in Hnd. destruct Hnd as [Hnd _]. exfalso. apply Hnd. left. reflexivity.
  - rewrite IH1 by exact Hnd. apply IH2.
    eapply Permutation_NoDup; [apply Permutation_map; exact Hp1|exact Hnd].
Qed.

Lemma last_def_perm {V} (l l' : list (bstr * V)) k :
  Permutation l l' -> NoDup (map fst l) -> last_def k l = last_def k l'.
Proof.
  intros Hp Hnd. unfold last_def. apply assoc_get_perm.
  - eapply perm_trans; [apply Permutation_sym, Permutation_rev|].
    eapply perm_trans; [exact Hp|apply Permutation_rev].
  - rewrite map_rev. apply NoDup_rev. exact Hnd.
Qed.

Record unique_ids (els : list element) : Prop := mkUnique {
  u_pdus : NoDup (map ap_id (el_pdus els));
  u_frames : NoDup (map af_id (el_frames els));
  u_signals : NoDup (map fst (el_signals els));
  u_codings : NoDup (map fst (el_codings els)) }.

Section Perm.
Variables els els' : list element.
Hypothesis Hperm : Permutation els els'.
Hypothesis Huniq : unique_ids els.

Lemma signal_type_perm r : signal_type els r = signal_type els' r.
Proof.
  unfold signal_type. destruct (assoc_get r standard_signals); [reflexivity|].
  rewrite (last_def_perm (el_signals els) (el_signals els') r (filter_map_perm _ _ _ Hperm)
             (u_signals _ Huniq)).
  destruct (last_def r (el_signals els')) as [c|]; [|reflexivity].
  rewrite (last_def_perm (el_codings els) (el_codings els') c (filter_map_perm _ _ _ Hperm)
             (u_codings _ Huniq)).
  reflexivity.
Qed.

Lemma denote_pdu_perm p : denote_pdu els p = denote_pdu els' p.
Proof. unfold denote_pdu. f_equal. apply filter_map_ext. exact signal_type_perm. Qed.

Lemma pdu_table_perm k : assoc_get k (pdu_table els) = assoc_get k (pdu_table els').
Proof.
  apply assoc_get_perm.
  - unfold pdu_table.
    rewrite (map_ext (fun p => (ap_id p, denote_pdu els' p)) (fun p => (ap_id p, denote_pdu els p)))
      by (intros p; rewrite denote_pdu_perm; reflexivity).
    apply Permutation_map, filter_map_perm. exact Hperm.
  - unfold pdu_table. rewrite map_map. cbn [fst]. exact (u_pdus _ Huniq).
Qed.

Lemma denote_frame_perm f : denote_frame els f = denote_frame els' f.
Proof.
  unfold denote_frame.
  rewrite (map_ext (fun r => assoc_get r (pdu_table els)) (fun r => assoc_get r (pdu_table els')) pdu_table_perm).
  reflexivity.
Qed.
End Perm.

Lemma frames_fst els fs fms :
  all_some (map (fun f => option_map (fun m => (f, m)) (denote_frame els f)) fs) = Some fms ->
  map fst fms = fs.
Proof.
  revert fms. induction fs as [|f t IH]; intros fms H; cbn [map all_some] in H.
  - injection H as <-. reflexivity.
  - destruct (denote_frame els f) as [m|]; cbn [option_map] in H; [|discriminate].
    destruct (all_some _) as [r|]; [|discriminate]. injection H as <-.
    cbn [map fst]. f_equal. apply IH. reflexivity.
Qed.

Lemma keyed_keys_in (fms : list (aframe * frame_metadata)) c a id :
  In (c, a, id) (map fst (filter_map keyed_entry fms)) -> In id (map af_id (map fst fms)).
Proof.
  induction fms as [|[f m] t IH]; cbn [filter_map map In]; [tauto|].
  unfold keyed_entry at 1. cbn [fst snd].
  destruct (af_context_id f) as [c'|]; [destruct (af_application_id f) as [a'|]|].
  - cbn [map fst In]. intros [H|H]; [left; congruence|right; apply IH; exact H].
  - intros H. right. apply IH. exact H.
  - intros H. right. apply IH. exact H.
Qed.

Lemma keyed_keys_nodup (fms : list (aframe * frame_metadata)) :
  NoDup (map af_id (map fst fms)) -> NoDup (map fst (filter_map keyed_entry fms)).
Proof.
  induction fms as [|[f m] t IH]; cbn [filter_map map]; intros Hnd; [constructor|].
  cbn [fst] in Hnd. apply NoDup_cons_iff in Hnd. destruct Hnd as [Hnin Hnd].
  unfold keyed_entry at 1. cbn [fst snd].
  destruct (af_context_id f) as [c|]; [destruct (af_application_id f) as [a|]|]; try (apply IH; exact Hnd).
  cbn [map fst]. constructor; [|apply IH; exact Hnd].
  intros Hin. apply Hnin. apply keyed_keys_in in Hin. exact Hin.
Qed.

Theorem denote_perm els els' :
  Permutation els els' -> unique_ids els ->
  match denote els, denote els' with
  | Some d, Some d' => meta_equiv d d'
  | None, None => True
  | _, _ => False
  end.
Proof.
  intros Hp Hu. unfold denote.
  set (F := fun f => option_map (fun m => (f, m)) (denote_frame els f)).
  set (F' := fun f => option_map (fun m => (f, m)) (denote_frame els' f)).
  assert (HF : forall f, F' f = F f)
    by (intros f; unfold F, F'; rewrite (denote_frame_perm els els' Hp Hu f); reflexivity).
  rewrite (map_ext F' F HF).
  pose proof (all_some_perm (map F (el_frames els)) (map F (el_frames els'))
                (Permutation_map F (filter_map_perm _ _ _ Hp))) as H.
  destruct (all_some (map F (el_frames els))) as [fms|] eqn:E;
    destruct (all_some (map F (el_frames els'))) as [fms'|] eqn:E'; try exact H.
  pose proof (frames_fst els _ _ E) as Hfst.
  split; intros k; cbn [frame_map frame_map_with_key].
  - apply assoc_get_perm.
    + apply Permutation_map. exact H.
    + rewrite map_map. cbn [fst]. rewrite <- (map_map fst af_id), Hfst. exact (u_frames _ Hu).
  - apply key_get_perm.
    + apply filter_map_perm. exact H.
    + apply keyed_keys_nodup. rewrite Hfst. exact (u_frames _ Hu).
Qed.

Lemma elements_ok_perm els els' : Permutation els els' -> elements_ok els = true -> elements_ok els' = true.
Proof. intros Hp. unfold elements_ok. rewrite (forallb_perm _ _ _ Hp). auto. Qed.

Lemma pdu_defined_perm els els' r : Permutation els els' -> pdu_defined els r = pdu_defined els' r.
Proof. intros Hp. unfold pdu_defined, el_pdus. apply existsb_perm, filter_map_perm, Hp. Qed.

Lemma refs_defined_perm els els' : Permutation els els' -> refs_defined els = true -> refs_defined els' = true.
Proof.
  intros Hp. unfold refs_defined, el_frames. rewrite (forallb_perm _ _ _ (filter_map_perm _ _ _ Hp)).
  rewrite !forallb_forall. intros H f Hf. specialize (H f Hf). rewrite forallb_forall in *.
  intros i Hi. rewrite <- (pdu_defined_perm els els' _ Hp). auto.
Qed.

Definition model_ok (a : afibex) : bool :=
  elements_ok (render_elements a) && refs_defined (render_elements a).

Lemma layout_elements_ok (a : afibex) (l : layout) :
  is_layout_of a l -> elements_ok (render_elements a) = true -> elements_ok (concat l) = true.
Proof. intros [_ Hp]. apply elements_ok_perm, Permutation_sym, Hp. Qed.

Theorem load_layout (a : afibex) (l : layout) :
  is_layout_of a l -> model_ok a = true ->
  exists m d, gather_fibex_data (files_of l) = Some m /\ denote (concat l) = Some d /\ meta_equiv m d.
Proof.
  intros Hl Hok. unfold model_ok in Hok. apply andb_true_iff in Hok. destruct Hok as [Hok Hrefs].
  apply load_consistent; [apply Hl|exact (layout_elements_ok a l Hl Hok)|].
  eapply refs_defined_perm; [apply Permutation_sym, Hl|exact Hrefs].
Qed.

Lemma meta_equiv_trans m1 m2 m3 : meta_equiv m1 m2 -> meta_equiv m2 m3 -> meta_equiv m1 m3.
Proof.
  intros [A1 A2] [B1 B2]. split; intros k; [rewrite A1; apply B1|rewrite A2; apply B2].
Qed.

(* with unique ids the result is THE meaning of the model, whatever the layout *)
Theorem load_layout_canonical (a : afibex) (l : layout) :
  is_layout_of a l -> model_ok a = true -> unique_ids (render_elements a) ->
  exists m d, gather_fibex_data (files_of l) = Some m /\ denote (render_elements a) = Some d /\
              meta_equiv m d.
Proof.
  intros Hl Hok Hu. destruct (load_layout a l Hl Hok) as (m & d' & Hm & Hd' & He).
  destruct Hl as [_ Hp].
  pose proof (denote_perm (render_elements a) (concat l) (Permutation_sym Hp) Hu) as H.
  rewrite Hd' in H. destruct (denote (render_elements a)) as [d|]; [|contradiction].
  exists m, d. split; [exact Hm|]. split; [reflexivity|].
  eapply meta_equiv_trans; [exact He|].
  destruct H as [H1 H2]. split; intros k; [rewrite H1|rewrite H2]; reflexivity.
Qed.

Lemma in_render_pdu a p : In (ElPdu p) (render_elements a) <-> In p (a_pdus a).
Proof.
  unfold render_elements. rewrite !in_app_iff, !in_map_iff. split.
  - intros [(q & [= ->] & H)|[(q & [=] & _)|[(q & [=] & _)|(q & [=] & _)]]]. exact H.
  - intros H. left. exists p. auto.
Qed.

Lemma in_render_frame a f : In f (a_frames a) -> In (ElFrame f) (render_elements a).
Proof.
  intros H. unfold render_elements. rewrite !in_app_iff, !in_map_iff. right. left. exists f. auto.
Qed.

Theorem load_layout_missing_pdu (a : afibex) (l : layout) f i :
  is_layout_of a l -> elements_ok (render_elements a) = true ->
  In f (a_frames a) -> In i (af_pdus f) ->
  (forall p, In p (a_pdus a) -> ap_id p <> snd i) ->
  load (files_of l) = Refused /\ gather_fibex_data (files_of l) = None.
Proof.
  intros Hl Hok Hf Hi Hundef. pose proof (layout_elements_ok a l Hl Hok) as Hok'. destruct Hl as [Hne Hp].
  apply (load_missing_pdu l f i Hne Hok').
  - eapply Permutation_in; [apply Permutation_sym, Hp|apply in_render_frame, Hf].
  - exact Hi.
  - intros p Hin. apply Hundef, in_render_pdu. eapply Permutation_in; [exact Hp|exact Hin].
Qed.
