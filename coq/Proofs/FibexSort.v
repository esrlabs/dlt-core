(* Proofs/FibexSort.v — the model of `sort_by_key` is a stable sort: a permutation of its input, ordered
   by key, and elements with equal keys keep their relative order. *)
From Coq Require Import Lia ZifyBool ZifyN ZifyNat.
From Coq Require Import Sorting.Permutation Sorting.Sorted.
From DltV.Model Require Import Bytes Fibex.
Open Scope N_scope.

Definition key_le {A} (a b : N * A) : Prop := fst a <= fst b.
Definition has_key {A} (k : N) (p : N * A) : bool := fst p =? k.

Section Sort.
Context {A : Type}.
Implicit Types (x : N * A) (l : list (N * A)).

Lemma insert_by_key_perm x l : Permutation (insert_by_key x l) (x :: l).
Proof.
  induction l as [|y t IH]; cbn [insert_by_key]; [apply Permutation_refl|].
  destruct (fst x <=? fst y); [apply Permutation_refl|].
  eapply Permutation_trans; [apply perm_skip; exact IH|apply perm_swap].
Qed.

Lemma sort_by_key_perm l : Permutation (sort_by_key l) l.
Proof.
  induction l as [|x t IH]; cbn [sort_by_key]; [apply Permutation_refl|].
  eapply Permutation_trans; [apply insert_by_key_perm|apply perm_skip; exact IH].
Qed.

Lemma insert_by_key_sorted x l :
  StronglySorted key_le l -> StronglySorted key_le (insert_by_key x l).
Proof.
  induction l as [|y t IH]; intros Hs; cbn [insert_by_key].
  - constructor; constructor.
  - apply StronglySorted_inv in Hs. destruct Hs as [Hst Hall].
    destruct (fst x <=? fst y) eqn:Hxy.
    + constructor; [constructor; assumption|].
      constructor; [unfold key_le; lia|].
      eapply Forall_impl; [|exact Hall]. intros z Hz. unfold key_le in *. lia.
    + constructor; [apply IH; exact Hst|].
      eapply Permutation_Forall; [apply Permutation_sym; apply insert_by_key_perm|].
      constructor; [unfold key_le; lia|exact Hall].
Qed.

Lemma sort_by_key_sorted l : StronglySorted key_le (sort_by_key l).
Proof.
  induction l as [|x t IH]; cbn [sort_by_key]; [constructor|].
  apply insert_by_key_sorted. exact IH.
Qed.

Lemma insert_by_key_stable k x l :
  filter (has_key k) (insert_by_key x l) = filter (has_key k) (x :: l).
Proof.
  induction l as [|y t IH]; cbn [insert_by_key]; [reflexivity|].
  destruct (fst x <=? fst y) eqn:Hxy; [reflexivity|].
  cbn [filter] in *. rewrite IH. unfold has_key.
  destruct (fst y =? k) eqn:Hy; destruct (fst x =? k) eqn:Hx; try reflexivity. lia.
Qed.

Lemma sort_by_key_stable k l :
  filter (has_key k) (sort_by_key l) = filter (has_key k) l.
Proof.
  induction l as [|x t IH]; cbn [sort_by_key]; [reflexivity|].
  rewrite insert_by_key_stable. cbn [filter]. rewrite IH. reflexivity.
Qed.

Theorem sort_by_key_spec l :
  Permutation (sort_by_key l) l /\
  StronglySorted key_le (sort_by_key l) /\
  (forall k, filter (has_key k) (sort_by_key l) = filter (has_key k) l).
Proof.
  split; [apply sort_by_key_perm|]. split; [apply sort_by_key_sorted|].
  intros k. apply sort_by_key_stable.
Qed.

Lemma filter_key_cons k x t :
  filter (has_key k) (x :: t) = if fst x =? k then x :: filter (has_key k) t else filter (has_key k) t.
Proof. reflexivity. Qed.

(* the head of a sorted list carries its least key, so a head of another list that occurs in it
   under its own key does not have a smaller one *)
Lemma head_key_le x t y u :
  Forall (key_le y) u -> filter (has_key (fst x)) (x :: t) = filter (has_key (fst x)) (y :: u) ->
  fst y <= fst x.
Proof.
  intros Hall E. rewrite (filter_key_cons (fst x) x t), N.eqb_refl in E.
  assert (Hin : In x (filter (has_key (fst x)) (y :: u))) by (rewrite <- E; left; reflexivity).
  apply filter_In in Hin. destruct Hin as [[->|Hin] _]; [lia|].
  rewrite Forall_forall in Hall. exact (Hall x Hin).
Qed.

Lemma sorted_stable_unique : forall l1 l2,
  StronglySorted key_le l1 -> StronglySorted key_le l2 ->
  (forall k, filter (has_key k) l1 = filter (has_key k) l2) -> l1 = l2.
Proof.
  induction l1 as [|x t IH]; intros l2 H1 H2 Hf.
  - destruct l2 as [|y u]; [reflexivity|].
    specialize (Hf (fst y)). rewrite filter_key_cons, N.eqb_refl in Hf. discriminate.
  - destruct l2 as [|y u].
    + specialize (Hf (fst x)). rewrite filter_key_cons, N.eqb_refl in Hf. discriminate.
    + apply StronglySorted_inv in H1. destruct H1 as [H1t H1a].
      apply StronglySorted_inv in H2. destruct H2 as [H2t H2a].
      pose proof (head_key_le x t y u H2a (Hf (fst x))) as Hkx.
      pose proof (head_key_le y u x t H1a (eq_sym (Hf (fst y)))) as Hky.
      assert (Hxy : x = y).
      { pose proof (Hf (fst x)) as E. rewrite !filter_key_cons, N.eqb_refl in E.
        replace (fst y =? fst x) with true in E by lia.
        injection E as E _. exact E. }
      subst y. f_equal. apply IH; [exact H1t|exact H2t|].
      intros k. specialize (Hf k). rewrite !filter_key_cons in Hf.
      destruct (fst x =? k); [injection Hf as Hf; exact Hf|exact Hf].
Qed.

Theorem sort_by_key_unique l l' :
  StronglySorted key_le l' ->
  (forall k, filter (has_key k) l' = filter (has_key k) l) ->
  l' = sort_by_key l.
Proof.
  intros Hs Hf. apply sorted_stable_unique; [exact Hs|apply sort_by_key_sorted|].
  intros k. rewrite Hf, sort_by_key_stable. reflexivity.
Qed.

End Sort.
