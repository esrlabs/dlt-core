(* Proofs/FibexLookup.v — extract_metadata is a plain map lookup under the key "ID_<decimal id>", and the
   decimal rendering of ids is injective (it is inverted by the digit parser), so distinct message
   ids never collide.  Also: `usize_from_str` reads back what `decimal` prints. *)
From Coq Require Import Lia ZifyBool ZifyN ZifyNat.
From Coq.Strings Require Import Ascii String.
From DltV.Model Require Import Bytes RustInt Dlt Fibex.
From DltV.Proofs Require Import BytesBasics.
Open Scope N_scope.

Lemma digit_val_digit (d : N) : d < 10 -> digit_val (n2b (48 + d)) = Some d.
Proof.
  intros Hd. unfold digit_val. rewrite b2n_n2b.
  rewrite N.mod_small by lia.
  destruct ((48 <=? 48 + d) && (48 + d <=? 57)) eqn:E; [f_equal; lia|lia].
Qed.

Lemma decimal_aux_value : forall fuel n acc,
  n < 2 ^ N.of_nat fuel ->
  digits_val 0 (decimal_aux fuel n acc) = digits_val n acc.
Proof.
  induction fuel as [|f IH]; intros n acc Hn.
  - cbn [decimal_aux]. change (2 ^ N.of_nat 0) with 1 in Hn. replace n with 0 by lia. reflexivity.
  - cbn [decimal_aux].
    assert (Hm : n mod 10 < 10) by (apply N.mod_lt; lia).
    destruct (n <? 10) eqn:Hlt.
    + cbn [digits_val]. rewrite digit_val_digit by exact Hm.
      rewrite N.mod_small by lia. reflexivity.
    + rewrite IH.
      * cbn [digits_val]. rewrite digit_val_digit by exact Hm.
        f_equal. pose proof (N.div_mod n 10 ltac:(lia)). lia.
      * rewrite Nat2N.inj_succ, N.pow_succ_r' in Hn.
        apply N.div_lt_upper_bound; lia.
Qed.

Lemma lt_pow2_log2 (n : N) : n < 2 ^ N.of_nat (S (N.to_nat (N.log2 n))).
Proof.
  rewrite Nat2N.inj_succ, N2Nat.id.
  destruct (N.eq_dec n 0) as [->|Hn]; [reflexivity|].
  apply N.log2_spec. lia.
Qed.

Lemma decimal_value (n : N) : digits_val 0 (decimal n) = Some n.
Proof. unfold decimal. rewrite decimal_aux_value; [reflexivity|apply lt_pow2_log2]. Qed.

Theorem decimal_inj (a b : N) : decimal a = decimal b -> a = b.
Proof.
  intros H. pose proof (decimal_value a) as Ha. rewrite H, decimal_value in Ha. congruence.
Qed.

Theorem id_text_inj (a b : N) : id_text a = id_text b -> a = b.
Proof. unfold id_text. intros H. apply app_inv_head in H. apply decimal_inj. exact H. Qed.

(* the first byte printed is a digit, so the leading-'+' rule of the parser does not interfere *)
Lemma decimal_aux_head : forall fuel n acc,
  exists d rest, d < 10 /\ decimal_aux (S fuel) n acc = n2b (48 + d) :: rest.
Proof.
  induction fuel as [|f IH]; intros n acc.
  - cbn [decimal_aux]. exists (n mod 10), acc. split; [apply N.mod_lt; lia|].
    destruct (n <? 10); reflexivity.
  - cbn [decimal_aux]. destruct (n <? 10).
    + exists (n mod 10), acc. split; [apply N.mod_lt; lia|reflexivity].
    + destruct (IH (n / 10) (n2b (48 + n mod 10) :: acc)) as (d & rest & Hd & E).
      exists d, rest. split; [exact Hd|]. exact E.
Qed.

Theorem usize_from_str_decimal (n : N) : n < 2 ^ 64 -> usize_from_str (decimal n) = Some n.
Proof.
  intros Hn. pose proof (decimal_value n) as Hv. unfold decimal in *.
  destruct (decimal_aux_head (N.to_nat (N.log2 n)) n []) as (d & rest & Hd & E).
  rewrite E in *. unfold usize_from_str.
  rewrite b2n_n2b, N.mod_small by lia.
  destruct (48 + d =? 43) eqn:E43; [lia|].
  rewrite Hv. destruct (n <? 2 ^ 64) eqn:E64; [reflexivity|lia].
Qed.

Theorem extract_metadata_spec : forall m id,
  (forall eh, extract_metadata m id (Some eh)
              = key_get (e_ctid eh, e_apid eh, bs "ID_" ++ decimal id) (frame_map_with_key m)) /\
  extract_metadata m id None = assoc_get (bs "ID_" ++ decimal id) (frame_map m).
Proof. intros m id. split; [intros eh|]; reflexivity. Qed.

Lemma assoc_get_in {V} (k : bstr) (m : list (bstr * V)) v : assoc_get k m = Some v -> In (k, v) m.
Proof.
  induction m as [|[k' v'] t IH]; cbn [assoc_get]; [discriminate|].
  destruct (bytes_eqb k k') eqn:E.
  - intros H. injection H as ->. apply bytes_eqb_eq in E. subst k'. left. reflexivity.
  - intros H. right. apply IH. exact H.
Qed.

Lemma frame_key_eqb_eq (a b : frame_key) : frame_key_eqb a b = true <-> a = b.
Proof.
  destruct a as [[c1 a1] f1], b as [[c2 a2] f2]. cbn [frame_key_eqb].
  rewrite !andb_true_iff, !bytes_eqb_eq. split.
  - intros [[-> ->] ->]. reflexivity.
  - intros H. injection H as -> -> ->. auto.
Qed.

Lemma key_get_in {V} (k : frame_key) (m : list (frame_key * V)) v : key_get k m = Some v -> In (k, v) m.
Proof.
  induction m as [|[k' v'] t IH]; cbn [key_get]; [discriminate|].
  destruct (frame_key_eqb k k') eqn:E.
  - intros H. injection H as ->. apply frame_key_eqb_eq in E. subst k'. left. reflexivity.
  - intros H. right. apply IH. exact H.
Qed.

Theorem extract_metadata_sound : forall m id eh f,
  (extract_metadata m id (Some eh) = Some f ->
     In ((e_ctid eh, e_apid eh, id_text id), f) (frame_map_with_key m)) /\
  (extract_metadata m id None = Some f -> In (id_text id, f) (frame_map m)).
Proof.
  intros m id eh f. split; cbn [extract_metadata]; intros H.
  - apply key_get_in. exact H.
  - apply assoc_get_in. exact H.
Qed.
