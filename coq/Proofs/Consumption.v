(* Proofs/Consumption.v — what a successful dlt_standard_header, dlt_payload and dlt_message tell (one
   inversion each, [dlt_message_inv] for the whole message) and C04: a successful parse consumes exactly
   the declared message. *)
From Coq Require Import Lia ZifyBool ZifyN ZifyNat.
From DltV.Model Require Import Bytes Nom Dlt Parse.
From DltV.Spec Require Import WellFormed.
From DltV.Proofs Require Import BytesBasics Fields Codes ParsedWfArgs ParseLemmas ParseInv.
Open Scope N_scope.

Definition declared_len (bs : list byte) : N := get_uint BE (firstn 2 (skipn 2 bs)).
Definition htyp_of (bs : list byte) : N := b2n (hd x00 bs).

Lemma declared_len_eq htyp mcnt overall tail :
  overall < 65536 -> declared_len (n2b htyp :: n2b mcnt :: put_uint BE 2 overall ++ tail) = overall.
Proof.
  intros H. unfold declared_len. cbn [skipn].
  rewrite firstn_app_exact by (now rewrite put_uint_length).
  apply get_put_uint. exact H.
Qed.

(* ---------- the standard header ---------- *)
Record std_facts (i : list byte) (h : std_header) (rest : list byte) : Prop := {
  sf_splits : splits i rest (calculate_standard_header_length (htyp_of i));
  sf_overall_lt : declared_len i < 65536;
  sf_headers_le : calculate_all_headers_length (htyp_of i) <= declared_len i;
  sf_payload : h_payload_length h = declared_len i - calculate_all_headers_length (htyp_of i);
  sf_type_byte : header_type_byte h = htyp_of i;
  sf_has_ext : h_has_ext h = flag (htyp_of i) 1;
  sf_overall_raw : overall_length_raw h = declared_len i;
  sf_ecu : match h_ecu h with
           | Some id => flag (htyp_of i) 4 = true /\ exists r, zstring 4 (skipn 4 i) = POk id r
           | None => flag (htyp_of i) 4 = false
           end;
  sf_wf : wf_std h = true;
}.

Lemma dlt_standard_header_inv i h rest : dlt_standard_header i = POk h rest -> std_facts i h rest.
Proof.
  unfold dlt_standard_header. intros H.
  apply pbind_ok_inv in H as (htyp & i0 & E0 & H).
  apply pbind_ok_inv in H as (mcnt & i1 & E1 & H).
  apply pbind_ok_inv in H as (overall & i2 & E2 & H).
  apply pbind_ok_inv in H as (ecu & i3 & E3 & H).
  apply pbind_ok_inv in H as (session & i4 & E4 & H).
  apply pbind_ok_inv in H as (tms & i5 & E5 & H).
  destruct (N.ltb_spec overall (calculate_all_headers_length htyp)) as [|Hle]; [discriminate|].
  injection H as <- <-.
  pose proof (u8_value E0) as Hh.
  pose proof (uint_value_bound _ _ _ _ _ E2) as Ho. change (256 ^ N.of_nat 2) with 65536 in Ho.
  apply (opt_field_inv _ parse_ecu_id _ _ _ 4) in E3 as (S3 & O3 & V3); [|exact (@zstring_splits 4)].
  apply (opt_field_inv _ (uint BE 4) _ _ _ 4) in E4 as (S4 & O4 & V4); [|exact (@uint_splits BE 4)].
  apply (opt_field_inv _ (uint BE 4) _ _ _ 4) in E5 as (S5 & O5 & V5); [|exact (@uint_splits BE 4)].
  pose proof (splits_trans (u8_splits E0) (splits_trans (u8_splits E1)
    (splits_trans (uint_splits E2)
    (splits_trans S3 (splits_trans S4 S5))))) as S.
  destruct (htyp_all htyp Hh) as [Hrt _]. unfold htyp_roundtrip in Hrt. apply N.eqb_eq in Hrt.
  assert (Hi : i = n2b htyp :: n2b mcnt :: put_uint BE 2 overall ++ i2)
    by (apply u8_head in E0; apply u8_head in E1; apply uint_head in E2; now subst).
  assert (T : htyp_of i = htyp) by (rewrite Hi; apply n2b_small, Hh).
  assert (D : declared_len i = overall) by (rewrite Hi; apply declared_len_eq, Ho).
  assert (I2 : skipn 4 i = i2) by (rewrite Hi; reflexivity).
  split; rewrite ?T, ?D, ?I2; unfold header_type_byte, overall_length_raw;
    cbn [h_payload_length h_has_ext h_mcnt h_endian h_ecu h_session h_timestamp h_version].
  - (* sf_splits *) apply (splits_eq S). unfold calculate_standard_header_length. lia.
  - (* sf_overall_lt *) exact Ho.
  - (* sf_headers_le *) exact Hle.
  - (* sf_payload *) reflexivity.
  - (* sf_type_byte *) rewrite <- O3, <- O4, <- O5 in Hrt. now destruct ecu, session, tms.
  - (* sf_has_ext *) reflexivity.
  - (* sf_overall_raw *) unfold calculate_all_headers_length, calculate_standard_header_length in *.
    rewrite <- O3, <- O4, <- O5 in *. destruct ecu, session, tms; cbn [is_some] in *; lia.
  - (* sf_ecu *) destruct ecu as [id|]; [|now symmetry]. split; [now symmetry|]. exists i3. now apply V3.
  - (* sf_wf *) unfold wf_std. cbn [h_version h_mcnt h_ecu h_session h_timestamp].
    rewrite (opt_wf wf_id ecu), (opt_wf _ session), (opt_wf _ tms), land7, !andb_true_r.
    + apply andb_true_iff. split; apply N.ltb_lt; [apply N.mod_lt; discriminate | exact (u8_value E1)].
    + intros v Ev. exact (uint_ltb _ _ _ _ _ (V5 v Ev)).
    + intros v Ev. exact (uint_ltb _ _ _ _ _ (V4 v Ev)).
    + intros id Ev. exact (zstring_wf_id (V3 id Ev)).
Qed.

(* the u16 arithmetic of overall_length does not wrap *)
Lemma std_facts_overall i h rest : std_facts i h rest -> overall_length h = declared_len i.
Proof.
  intros F. unfold overall_length. rewrite (sf_overall_raw _ _ _ F).
  apply N.mod_small, (sf_overall_lt _ _ _ F).
Qed.

(* the parser already checked that the declared length covers the headers, so only "enough bytes" is left to
   decide *)
Lemma vpl_of_parsed a h r n : dlt_standard_header a = POk h r ->
  validated_payload_length h n =
  if n <? declared_len a then VplIncomplete (needed_new (declared_len a - n)) else VplOk (h_payload_length h).
Proof.
  intros E. apply dlt_standard_header_inv in E as F. pose proof (sf_headers_le _ _ _ F) as Hle.
  unfold validated_payload_length.
  rewrite (std_facts_overall _ _ _ F), (sf_type_byte _ _ _ F), (sf_payload _ _ _ F).
  destruct (N.ltb_spec (declared_len a) (calculate_all_headers_length (htyp_of a))); [lia | reflexivity].
Qed.

(* ---------- dlt_payload ---------- *)
Lemma control_from_value_wf b : b < 256 -> wf_control_id (control_from_value b) = true.
Proof.
  intros H. apply N.ltb_lt in H. unfold control_from_value.
  destruct b as [|[[]|[]|]]; cbn; try reflexivity; cbn in H; now rewrite H.
Qed.

Lemma dlt_payload_inv e i verbose pl noar mt p rest :
  dlt_payload e i verbose pl noar mt = POk p rest ->
  splits i rest pl /\
  match p with
  | PVerbose args =>
    verbose = true /\ opt_is is_nw_trace mt = false /\ args_facts (N.to_nat noar) pl args
  | PNetworkTrace sl =>
    verbose = true /\ opt_is is_nw_trace mt = true /\
    exists args, args_facts (N.to_nat noar) pl args /\ sl = raw_slices args
  | PNonVerbose id _ => verbose = false /\ opt_is is_control mt = false /\ id < 2 ^ 32
  | PControl ct _ => verbose = false /\ opt_is is_control mt = true /\ wf_control_id ct = true
  end.
Proof.
  destruct verbose.
  - unfold dlt_payload. intros H. apply pbind_ok_inv in H as (pb & r & E & H). apply take_ok_inv in E as [S ->].
    destruct (count (dlt_argument e) (N.to_nat noar) (firstn (N.to_nat pl) i)) as [args r'| | | |] eqn:C;
      try discriminate.
    apply count_arguments_inv in C. rewrite (len_firstn_N _ _ (proj1 (splits_le S))) in C.
    destruct mt as [[]|]; injection H as <- <-; (split; [exact S|]); cbn [opt_is is_nw_trace]; eauto 6.
  - rewrite dlt_payload_nonverbose. destruct (opt_is is_control mt).
    + destruct (N.ltb_spec pl 1) as [|Hpl]; [discriminate|]. intros H.
      apply pbind_ok_inv in H as (id & i1 & E1 & H). apply pbind_ok_inv in H as (bs & r & E2 & H).
      injection H as <- <-. destruct i as [|b i]; [discriminate|]. injection E1 as <- <-. split.
      * apply (splits_eq (splits_trans (ex_intro _ [b] (conj eq_refl (eq_refl : len [b] = 1))) (proj1 (take_ok_inv E2)))). lia.
      * split; [reflexivity|]. split; [reflexivity|]. apply control_from_value_wf, b2n_lt.
    + destruct (N.ltb_spec pl 4) as [|Hpl]; [discriminate|]. intros H.
      apply pbind_ok_inv in H as (id & i1 & E1 & H). apply pbind_ok_inv in H as (bs & r & E2 & H).
      injection H as <- <-. split.
      * apply (splits_eq (splits_trans (uint_splits E1) (proj1 (take_ok_inv E2)))). lia.
      * split; [reflexivity|]. split; [reflexivity | exact (uint_pow2 _ _ _ _ _ E1)].
Qed.

(* ---------- dlt_message ---------- *)
(* what dlt_message hands to dlt_payload from the (optional) extended header *)
Definition verbose_of (ext : option ext_header) : bool :=
  match ext with Some x => e_verbose x | None => false end.
Definition noar_of (ext : option ext_header) : N :=
  match ext with Some x => e_noar x | None => 0 end.

Definition after_headers_step (st : option storage_header) (f : option processed_filter)
    (h : std_header) (ext : option ext_header) (after_headers : list byte) : pres parsed_message :=
  if filtered_out ext f (h_ecu h) then
    let* (_, after_message) := take (h_payload_length h) after_headers in
    POk (FilteredOut (h_payload_length h)) after_message
  else
    let* (p, i) := dlt_payload (h_endian h) after_headers (verbose_of ext) (h_payload_length h) (noar_of ext)
                     (option_map e_mtype ext) in
    POk (Item (mkMsg st h ext p)) i.

Lemma after_headers_step_inv st f h ext ah pm rest :
  after_headers_step st f h ext ah = POk pm rest ->
  splits ah rest (h_payload_length h) /\
  match pm with
  | Item m => exists p, m = mkMsg st h ext p /\
      dlt_payload (h_endian h) ah (verbose_of ext) (h_payload_length h) (noar_of ext) (option_map e_mtype ext)
        = POk p rest
  | FilteredOut n => n = h_payload_length h /\ filtered_out ext f (h_ecu h) = true
  | Invalid => False
  end.
Proof.
  unfold after_headers_step. destruct (filtered_out ext f (h_ecu h)); intros H.
  - apply pbind_ok_inv in H as (x & am & Et & H). injection H as <- <-.
    apply take_ok_inv in Et as [S _]. now split.
  - apply pbind_ok_inv in H as (p & r & Ep & H). injection H as <- <-.
    split; [exact (proj1 (dlt_payload_inv _ _ _ _ _ _ _ _ Ep)) | now exists p].
Qed.

(* the [forall f']: the headers and the length check do not depend on the filter *)
Lemma dlt_message_after_inv shs a f pm rest :
  dlt_message_after shs a f = POk pm rest ->
  exists h after_std ext ah,
    std_facts a h after_std /\ opt_ext_facts (flag (htyp_of a) 1) after_std ext ah /\
    declared_len a <= len a /\
    (forall f', dlt_message_after shs a f' = after_headers_step (option_map fst shs) f' h ext ah) /\
    after_headers_step (option_map fst shs) f h ext ah = POk pm rest.
Proof.
  unfold dlt_message_after. intros H.
  apply pbind_ok_inv in H as (h & after_std & Eh & H). rewrite Eh. cbn [pbind].
  apply pbind_ok_inv in H as (ext & ah & Ee & H). rewrite Ee. cbn [pbind].
  rewrite (vpl_of_parsed _ _ _ _ Eh) in *.
  destruct (N.ltb_spec (len a) (declared_len a)) as [|Hfit]; [discriminate|].
  apply dlt_standard_header_inv in Eh as F. rewrite (sf_has_ext _ _ _ F) in Ee.
  exists h, after_std, ext, ah.
  split; [exact F|]. split; [exact (opt_extended_header_inv _ _ _ _ Ee)|]. split; [exact Hfit|].
  split; [reflexivity | exact H].
Qed.

Definition located (sh : bool) (bs : list byte) (skip : N) (after : list byte) : Prop :=
  if sh then find_pattern bs = Some (N.to_nat skip) /\ 16 <= len (skipn (N.to_nat skip) bs)
             /\ after = skipn (N.to_nat skip + 16) bs
  else skip = 0 /\ after = bs.

Lemma located_splits sh bs skip after :
  located sh bs skip after -> splits bs after (skip + (if sh then 16 else 0)).
Proof.
  destruct sh.
  - intros (_ & H16 & ->). rewrite len_skipn in H16.
    replace (N.to_nat skip + 16)%nat with (N.to_nat (skip + 16)) by lia. apply splits_of_firstn. lia.
  - intros [-> ->]. apply splits_refl.
Qed.

(* Everything a successful dlt_message tells; the filter [f] plays no part before [after_headers_step]. *)
Lemma dlt_message_inv bs f sh pm rest :
  dlt_message bs f sh = POk pm rest ->
  exists skip after st h after_std ext ah,
    located sh bs skip after /\
    match st with
    | Some s => sh = true /\ wf_storage s = true /\
                zstring 4 (skipn (N.to_nat skip + 12) bs) = POk (sh_ecu s) after
    | None => sh = false
    end /\
    std_facts after h after_std /\ opt_ext_facts (flag (htyp_of after) 1) after_std ext ah /\
    declared_len after <= len after /\
    (forall f', dlt_message bs f' sh = after_headers_step st f' h ext ah) /\
    after_headers_step st f h ext ah = POk pm rest.
Proof.
  unfold dlt_message. intros H. apply pbind_ok_inv in H as (shs & after & Es & H).
  assert (St : exists skip, located sh bs skip after /\
                 match option_map fst shs with
                 | Some s => sh = true /\ wf_storage s = true /\
                             zstring 4 (skipn (N.to_nat skip + 12) bs) = POk (sh_ecu s) after
                 | None => sh = false
                 end).
  { destruct sh; [|injection Es as <- <-; now exists 0].
    rewrite dlt_storage_header_eq in Es. unfold forward_to_next_storage_header in Es.
    destruct (len bs <? 16); [discriminate|].
    destruct (find_pattern bs) as [k|] eqn:Fp; [|injection Es as <- <-; discriminate H].
    apply pmap_ok_inv in Es as (s & Es & ->). rewrite <- (Nat2N.id k) in Es, Fp.
    apply sh_core_inv in Es as (S16 & Ez & W). pose proof (splits_len S16).
    exists (N.of_nat k). cbn [option_map fst]. rewrite skipn_skipn_add in Ez.
    split; [|now split]. split; [exact Fp|]. split; [lia|].
    rewrite (proj2 (splits_firstn S16)). apply skipn_skipn_add. }
  destruct St as (skip & L & St).
  apply dlt_message_after_inv in H as (h & after_std & ext & ah & F & X & Fit & Eq & H).
  exists skip, after, (option_map fst shs), h, after_std, ext, ah.
  split; [exact L|]. split; [exact St|]. split; [exact F|]. split; [exact X|]. split; [exact Fit|].
  split; [|exact H]. intros f'. rewrite Es. apply Eq.
Qed.

Lemma dlt_message_item_inv bs f sh m rest :
  dlt_message bs f sh = POk (Item m) rest ->
  is_some (m_storage m) = sh /\ wf_opt wf_storage (m_storage m) = true /\
  wf_std (m_header m) = true /\
  h_has_ext (m_header m) = is_some (m_ext m) /\
  wf_opt wf_ext (m_ext m) = true /\
  overall_length_raw (m_header m) <= 65535 /\
  exists after_headers,
    dlt_payload (h_endian (m_header m)) after_headers (verbose_of (m_ext m)) (h_payload_length (m_header m))
      (noar_of (m_ext m)) (option_map e_mtype (m_ext m)) = POk (m_payload m) rest.
Proof.
  intros H.
  apply dlt_message_inv in H as (skip & after & st & h & after_std & ext & ah & _ & St & F & (_ & Ox & Wx & _) & _ & _ & H).
  apply after_headers_step_inv in H as (_ & p & -> & Ep). cbn [m_storage m_header m_ext m_payload].
  assert (Hs : is_some st = sh /\ wf_opt wf_storage st = true).
  { destruct st as [s|]; [destruct St as (-> & W & _); now split | subst sh; now split]. }
  split; [apply Hs|]. split; [apply Hs|]. split; [exact (sf_wf _ _ _ F)|].
  split; [now rewrite (sf_has_ext _ _ _ F)|]. split; [exact Wx|].
  split; [rewrite (sf_overall_raw _ _ _ F); pose proof (sf_overall_lt _ _ _ F); lia|].
  exists ah. exact Ep.
Qed.

(* ---------- C04 ---------- *)
Theorem dlt_message_consumes bs f sh pm rest :
  dlt_message bs f sh = POk pm rest ->
  exists skip after, located sh bs skip after /\
    splits bs rest (skip + (if sh then 16 else 0) + declared_len after) /\
    4 <= declared_len after /\ pm <> Invalid /\
    (forall n, pm = FilteredOut n -> n = declared_len after - calculate_all_headers_length (htyp_of after)).
Proof.
  intros H.
  apply dlt_message_inv in H as (skip & after & st & h & after_std & ext & ah & L & _ & F & (Sx & _) & _ & _ & H).
  apply after_headers_step_inv in H as [Sp Hpm].
  pose proof (sf_headers_le _ _ _ F) as Hle. pose proof (sf_payload _ _ _ F) as Hpl.
  unfold calculate_all_headers_length in Hle, Hpl.
  exists skip, after. split; [exact L|]. split; [|split].
  - apply (splits_eq (splits_trans (located_splits _ _ _ _ L) (splits_trans (sf_splits _ _ _ F)
      (splits_trans Sx Sp)))). lia.
  - unfold calculate_standard_header_length in Hle. lia.
  - destruct pm as [m|n0|]; [split; discriminate | | destruct Hpm].
    destruct Hpm as [-> _]. split; [discriminate|]. intros n [= <-]. exact Hpl.
Qed.

Theorem filter_independent_rest bs f1 f2 sh pm1 pm2 rest1 rest2 :
  dlt_message bs f1 sh = POk pm1 rest1 -> dlt_message bs f2 sh = POk pm2 rest2 -> rest1 = rest2.
Proof.
  intros H1 H2.
  apply dlt_message_consumes in H1 as (k1 & a1 & L1 & S1 & _).
  apply dlt_message_consumes in H2 as (k2 & a2 & L2 & S2 & _).
  assert (k1 = k2 /\ a1 = a2) as [<- <-].
  { unfold located in *. destruct sh.
    - destruct L1 as (F1 & _ & ->), L2 as (F2 & _ & ->). rewrite F1 in F2. injection F2 as F2.
      split; [lia | now rewrite F2].
    - destruct L1 as (-> & ->), L2 as (-> & ->). now split. }
  destruct (splits_firstn S1) as [_ ->]. destruct (splits_firstn S2) as [_ ->]. reflexivity.
Qed.

(* for parse_all: fuel beyond the length of the buffer is never exhausted *)
Lemma parse_all_progress bs f sh pm rest :
  dlt_message bs f sh = POk pm rest -> (length rest < length bs)%nat.
Proof.
  intros H. apply dlt_message_consumes in H as (k & a & _ & S & H4 & _).
  apply splits_len in S. unfold len in S. lia.
Qed.
Theorem parse_all_terminates fuel bs f sh :
  (length bs < fuel)%nat ->
  let '(l, r) := parse_all fuel bs f sh in
  forall x y, dlt_message r f sh <> POk x y.
Proof.
  revert bs; induction fuel as [|fuel IH]; intros bs Hf; [lia|].
  cbn [parse_all]. destruct (dlt_message bs f sh) as [pm rest| | | |] eqn:E;
    try (intros x y; congruence).
  pose proof (parse_all_progress _ _ _ _ _ E) as P.
  specialize (IH rest ltac:(lia)). destruct (parse_all fuel rest f sh) as [l r]. exact IH.
Qed.
