(* Proofs/NonVerboseProofs.v — C13: construct_arguments (Model/Parse.v) refines the field-by-field decoder of
   Spec/NonVerbose.v, which inverts the packed encoding; the instrumented transcription never panics. *)
From Coq Require Import Lia ZifyBool ZifyN ZifyNat.
From DltV.Model Require Import Bytes RustInt Utf8 Nom Dlt Parse.
From DltV.Spec Require Import NonVerbose.
From DltV.Proofs Require Import BytesBasics Fields ParseLemmas LayoutArgs.
Open Scope N_scope.


(* ---------- lists ---------- *)
Lemma skipn_N_add {A} (data : list A) a n :
  skipn (N.to_nat n) (skipn (N.to_nat a) data) = skipn (N.to_nat (a + n)) data.
Proof. rewrite skipn_skipn_add. f_equal. lia. Qed.

Lemma slice_eq data a n : slice data a (a + n) = firstn (N.to_nat n) (skipn (N.to_nat a) data).
Proof. unfold slice. f_equal. lia. Qed.

Lemma len_slice_in data a n : a + n <= len data -> len (slice data a (a + n)) = n.
Proof. intros H. rewrite slice_eq, len_firstn_N; [reflexivity|]. rewrite len_skipn_N. lia. Qed.

Lemma nth_skipn_hd {A} k (l : list A) b r d : skipn k l = b :: r -> nth k l d = b.
Proof.
  revert l; induction k as [|k IH]; intros [|x l]; cbn [skipn nth]; try discriminate.
  - intros H. now injection H.
  - apply IH.
Qed.

(* ---------- [next] ---------- *)
Lemma next_some n d f r : next n d = Some (f, r) -> d = f ++ r /\ len f = n.
Proof.
  unfold next. destruct (N.ltb_spec (len d) n) as [|Hge]; [discriminate|].
  intros [= <- <-]. split; [symmetry; apply firstn_skipn | now apply len_firstn_N].
Qed.
Lemma next_none n d : next n d = None -> len d < n.
Proof. unfold next. destruct (N.ltb_spec (len d) n); [trivial|discriminate]. Qed.
Lemma next_app n c r : len c = n -> next n (c ++ r) = Some (c, r).
Proof. apply (rd_app n (fun c => c)). Qed.
Lemma next_short n d : len d < n -> next n d = None.
Proof. intros H. unfold next. destruct (N.ltb_spec (len d) n); [reflexivity|lia]. Qed.
Lemma next_skipn data off w : off <= len data ->
  next w (skipn (N.to_nat off) data) =
  if len data <? off + w then None
  else Some (slice data off (off + w), skipn (N.to_nat (off + w)) data).
Proof.
  intros H. unfold next. rewrite len_skipn_N, slice_eq, skipn_N_add.
  destruct (N.ltb_spec (len data - off) w); destruct (N.ltb_spec (len data) (off + w)); try lia; reflexivity.
Qed.

(* ---------- widths ---------- *)
Lemma int_width_bytes l : N.of_nat (type_length_bytes l) = int_width l.
Proof. now destruct l. Qed.
Lemma flt_width_bytes w : N.of_nat (float_width_bytes w) = flt_width w.
Proof. now destruct w. Qed.
Lemma field_size_unsigned l n : field_size (unsigned_value l n) = int_width l.
Proof. now destruct l. Qed.
Lemma field_size_signed l z : field_size (signed_value l z) = int_width l.
Proof. now destruct l. Qed.
Lemma field_size_float w b : field_size (float_value w b) = flt_width w.
Proof. now destruct w. Qed.
Lemma field_size_pos v : 0 < field_size v.
Proof. destruct v; cbn [field_size]; lia. Qed.

(* ---------- the width dispatchers on enough input ---------- *)
Lemma dlt_uint_enough e l i : int_width l <= len i ->
  pres_value (dlt_uint e l i) =
  Some (unsigned_value l (get_uint e (firstn (N.to_nat (int_width l)) i))).
Proof. intros H. now rewrite (field_long _ _ _ _ (field_dlt_uint e l) H). Qed.
Lemma dlt_sint_enough e l i : int_width l <= len i ->
  pres_value (dlt_sint e l i) =
  Some (signed_value l (get_sint e (firstn (N.to_nat (int_width l)) i))).
Proof. intros H. now rewrite (field_long _ _ _ _ (field_dlt_sint e l) H). Qed.
Lemma dlt_fint_exact e w s : len s = flt_width w ->
  pres_value (dlt_fint e w s) = Some (float_value w (get_uint e s)).
Proof.
  intros H. rewrite <- (app_nil_r s) at 1. now rewrite (field_app _ _ _ s [] (field_dlt_fint e w) H).
Qed.

(* Fixed point: construct_arguments hands dlt_fixed_point a slice of exactly 4 resp. 8 bytes
   (the width of the value field), but dlt_fixed_point needs 4 bytes of quantization plus a 4 resp.
   8 byte offset — it can never succeed on that slice. *)
Lemma dlt_fixed_point_short e w s : len s <= flt_width w ->
  forall fp r, dlt_fixed_point e w s <> POk fp r.
Proof.
  intros H fp r E. destruct (field_dlt_fixed_point e w) as (f & F).
  destruct (field_inv _ _ _ _ _ _ F E) as (Hl & _). change (Layout.float_bytes w) with (flt_width w) in Hl. lia.
Qed.

Lemma construct_one_fixed_point e t data off :
  is_fixed_point (ti_kind_of t) = true -> construct_one e t data off = None.
Proof.
  unfold construct_one.
  destruct (ti_kind_of t) as [|l|w|l|w|w| |]; try discriminate; intros _; cbv zeta;
    rewrite flt_width_bytes;
    (destruct (N.ltb_spec (len data) (off + flt_width w)); [reflexivity|]);
    rewrite slice_eq;
    (destruct (dlt_fixed_point e w _) as [fp vo| | | |] eqn:F; try reflexivity);
    exfalso; revert F; apply dlt_fixed_point_short; rewrite len_firstn; lia.
Qed.

(* ---------- one field of the spec: it is the inverse of the packed encoding ---------- *)
Lemma field_bytes_unsigned e l n :
  field_bytes e (unsigned_value l n) = put_uint e (N.to_nat (int_width l)) n.
Proof. now destruct l. Qed.
Lemma field_bytes_signed e l z :
  field_bytes e (signed_value l z) = put_sint e (N.to_nat (int_width l)) z.
Proof. now destruct l. Qed.
Lemma field_bytes_float e w b :
  field_bytes e (float_value w b) = put_uint e (N.to_nat (flt_width w)) b.
Proof. now destruct w. Qed.
Lemma kind_unsigned l n :
  value_of_kind (KUnsigned l) (unsigned_value l n) = (n <? 256 ^ int_width l).
Proof. now destruct l. Qed.
Lemma kind_signed l z :
  value_of_kind (KSigned l) (signed_value l z) = in_signed (8 * int_width l) z.
Proof. now destruct l. Qed.
Lemma kind_float w b :
  value_of_kind (KFloat w) (float_value w b) = (b <? 256 ^ flt_width w).
Proof. now destruct w. Qed.

Lemma len_field_bytes e v : len (field_bytes e v) = field_size v.
Proof.
  destruct v; cbn [field_bytes field_size];
    rewrite ?len_app, ?len_put_uint, ?len_put_sint; reflexivity.
Qed.

Lemma put_get_uint_N e f : put_uint e (N.to_nat (len f)) (get_uint e f) = f.
Proof. unfold len. rewrite Nat2N.id. apply put_get_uint. Qed.
Lemma put_get_sint_N e f : put_sint e (N.to_nat (len f)) (get_sint e f) = f.
Proof.
  unfold len, put_sint, get_sint. rewrite Nat2N.id.
  rewrite of_signed_to_signed; [apply put_get_uint|]. rewrite <- pow256. apply get_uint_bound.
Qed.
Lemma get_sint_in_range e f : in_signed (8 * len f) (get_sint e f) = true.
Proof. unfold get_sint, len. apply to_signed_in_range. rewrite <- pow256. apply get_uint_bound. Qed.


Lemma chunk_sound e d lf r0 s r : next 2 d = Some (lf, r0) -> next (get_uint e lf) r0 = Some (s, r) ->
  d = put_uint e 2 (len s) ++ s ++ r /\ len s < 2 ^ 16.
Proof.
  intros Hn Hs. apply next_some in Hn as [-> Hl]. apply next_some in Hs as [-> Hls].
  rewrite Hls. change 2%nat with (N.to_nat 2). rewrite <- Hl at 1. rewrite put_get_uint_N. split; [reflexivity|].
  pose proof (get_uint_bound e lf) as Hb. rewrite Hl in Hb. exact Hb.
Qed.

Lemma spec_field_sound e k d v r : spec_field e k d = Some (v, r) ->
  d = field_bytes e v ++ r /\ value_of_kind k v = true.
Proof.
  destruct k as [|l|w|l|w|w| |]; cbn [spec_field]; try discriminate.
  2-4: (* a field of fixed width *)
    (destruct (next _ d) as [[f r0]|] eqn:Hn; [|discriminate]); intros [= <- <-]; apply next_some in Hn as [-> Hl].
  5-6: (* a length and that many bytes *)
    (destruct (next 2 d) as [[lf r0]|] eqn:Hn; [|discriminate]);
    (destruct (next (get_uint e lf) r0) as [[s r1]|] eqn:Hs; [|discriminate]);
    destruct (chunk_sound _ _ _ _ _ _ Hn Hs) as [-> Hb]; apply N.ltb_lt in Hb.
  - (* bool *)
    destruct d as [|b d']; [discriminate|]. intros [= <- <-].
    cbn [field_bytes value_of_kind]. rewrite put_uint_1, n2b_b2n. split; [reflexivity|].
    apply N.ltb_lt, (b2n_lt b).
  - (* signed *)
    rewrite field_bytes_signed, kind_signed, <- Hl, put_get_sint_N. split; [reflexivity | apply get_sint_in_range].
  - (* unsigned *)
    rewrite field_bytes_unsigned, kind_unsigned, <- Hl, put_get_uint_N. split; [reflexivity | apply N.ltb_lt, get_uint_bound].
  - (* float *)
    rewrite field_bytes_float, kind_float, <- Hl, put_get_uint_N. split; [reflexivity | apply N.ltb_lt, get_uint_bound].
  - (* string *)
    destruct (valid_utf8 s) eqn:Hv; [|discriminate]. intros [= <- <-].
    cbn [field_bytes value_of_kind]. now rewrite Hv, <- app_assoc.
  - (* raw *) intros [= <- <-]. cbn [field_bytes value_of_kind]. now rewrite <- app_assoc.
Qed.

Lemma next_put_uint e w n r : next w (put_uint e (N.to_nat w) n ++ r) = Some (put_uint e (N.to_nat w) n, r).
Proof. apply next_app. rewrite len_put_uint. apply N2Nat.id. Qed.
Lemma next_put_sint e w z r : next w (put_sint e (N.to_nat w) z ++ r) = Some (put_sint e (N.to_nat w) z, r).
Proof. apply next_app. rewrite len_put_sint. apply N2Nat.id. Qed.

Lemma chunk_complete e s r : len s < 2 ^ 16 ->
  next 2 (put_uint e 2 (len s) ++ s ++ r) = Some (put_uint e 2 (len s), s ++ r) /\
  next (get_uint e (put_uint e 2 (len s))) (s ++ r) = Some (s, r).
Proof.
  intros H. rewrite (next_put_uint e 2), get_put_uint by exact H. split; [reflexivity | now apply next_app].
Qed.

Lemma kind_unsigned_inv l v : value_of_kind (KUnsigned l) v = true -> exists n, v = unsigned_value l n.
Proof. destruct l, v; try discriminate; eexists; reflexivity. Qed.
Lemma kind_signed_inv l v : value_of_kind (KSigned l) v = true -> exists z, v = signed_value l z.
Proof. destruct l, v; try discriminate; eexists; reflexivity. Qed.
Lemma kind_float_inv w v : value_of_kind (KFloat w) v = true -> exists b, v = float_value w b.
Proof. destruct w, v; try discriminate; eexists; reflexivity. Qed.

Lemma spec_field_complete e k v r : value_of_kind k v = true ->
  spec_field e k (field_bytes e v ++ r) = Some (v, r).
Proof.
  destruct k as [|l|w|l|w|w| |]; intros H.
  - (* bool *)
    destruct v; try discriminate. cbn [value_of_kind field_bytes] in *. change (2 ^ 8) with 256 in H.
    rewrite put_uint_1. cbn [app spec_field]. rewrite n2b_small by lia. reflexivity.
  - destruct (kind_signed_inv l v H) as (z & ->). rewrite kind_signed in H.
    rewrite field_bytes_signed. cbn [spec_field]. rewrite next_put_sint, get_put_sint; [reflexivity | |].
    + destruct l; cbn; lia.
    + now rewrite N2Nat.id.
  - destruct w, v; discriminate.
  - destruct (kind_unsigned_inv l v H) as (n & ->). rewrite kind_unsigned in H. apply N.ltb_lt in H.
    rewrite field_bytes_unsigned. cbn [spec_field]. now rewrite next_put_uint, get_put_uint by now rewrite N2Nat.id.
  - destruct w, v; discriminate.
  - destruct (kind_float_inv w v H) as (b & ->). rewrite kind_float in H. apply N.ltb_lt in H.
    rewrite field_bytes_float. cbn [spec_field]. now rewrite next_put_uint, get_put_uint by now rewrite N2Nat.id.
  - (* string *)
    destruct v; try discriminate. cbn [value_of_kind field_bytes] in *.
    apply andb_true_iff in H as [Hv Hl]. apply N.ltb_lt in Hl. rewrite <- app_assoc. cbn [spec_field].
    destruct (chunk_complete e s r Hl) as [-> ->]. now rewrite Hv.
  - (* raw *)
    destruct v; try discriminate. cbn [value_of_kind field_bytes] in *. apply N.ltb_lt in H.
    rewrite <- app_assoc. cbn [spec_field]. now destruct (chunk_complete e bs r H) as [-> ->].
Qed.


Lemma spec_field_rest e k d v r : spec_field e k d = Some (v, r) ->
  field_size v <= len d /\ r = skipn (N.to_nat (field_size v)) d.
Proof.
  intros H. apply spec_field_sound in H as (-> & _).
  rewrite len_app, <- (len_field_bytes e v), skipn_len_app. split; [lia|reflexivity].
Qed.

Lemma construct_one_refines e t data off : off <= len data ->
  construct_one e t data off =
  match spec_field e (ti_kind_of t) (skipn (N.to_nat off) data) with
  | Some (v, r) => Some (v, None, off + field_size v)
  | None => None
  end.
Proof.
  intros Hoff. destruct (is_fixed_point (ti_kind_of t)) eqn:Fp.
  { rewrite construct_one_fixed_point by exact Fp. now destruct (ti_kind_of t). }
  unfold construct_one.
  destruct (ti_kind_of t) as [|l|w|l|w|w| |]; try discriminate Fp; cbn [spec_field]; cbv zeta;
    rewrite ?int_width_bytes, ?flt_width_bytes.
  (* the next field is the slice behind the offset, if it is inside the data *)
  2-6: rewrite next_skipn by exact Hoff; (destruct (len data <? _) eqn:L; [reflexivity|]); apply N.ltb_ge in L.
  5-6: (* string, raw: the same again for the bytes behind the length field *)
    rewrite next_skipn by lia; (destruct (len data <? _) eqn:L'; [reflexivity|]); apply N.ltb_ge in L'.
  - (* bool *)
    pose proof (len_skipn_N off data) as Hsk.
    destruct (skipn (N.to_nat off) data) as [|b r] eqn:S.
    + change (len (@nil byte)) with 0 in Hsk.
      destruct (N.ltb_spec (len data) (off + 1)); [reflexivity|lia].
    + rewrite len_cons in Hsk.
      destruct (N.ltb_spec (len data) (off + 1)); [lia|].
      replace (N.to_nat (off + 1 - 1)) with (N.to_nat off) by lia.
      now rewrite (nth_skipn_hd _ _ _ _ x00 S).
  - (* signed *) rewrite dlt_sint_enough by (rewrite len_skipn_N; lia). now rewrite slice_eq, field_size_signed.
  - (* unsigned *) rewrite dlt_uint_enough by (rewrite len_skipn_N; lia). now rewrite slice_eq, field_size_unsigned.
  - (* float *) rewrite dlt_fint_exact by (apply len_slice_in, L). now rewrite field_size_float.
  - (* string *)
    destruct (valid_utf8 _); [|reflexivity]. cbn [field_size]. now rewrite len_slice_in, N.add_assoc by exact L'.
  - (* raw *) cbn [field_size]. now rewrite len_slice_in, N.add_assoc by exact L'.
Qed.

(* ---------- the refinement ---------- *)
Lemma construct_from_refines e tys : forall data off, off <= len data ->
  construct_from e tys data off = spec_construct e tys (skipn (N.to_nat off) data).
Proof.
  unfold spec_construct.
  induction tys as [|t tys IH]; intros data off Hoff; cbn [construct_from spec_decode]; [reflexivity|].
  rewrite construct_one_refines by exact Hoff.
  destruct (spec_field e (ti_kind_of t) (skipn (N.to_nat off) data)) as [[v r]|] eqn:F; [|reflexivity].
  apply spec_field_rest in F as (Hle & ->). rewrite len_skipn_N in Hle.
  rewrite IH by lia. rewrite skipn_N_add.
  now destruct (spec_decode e tys _) as [[args r']|].
Qed.

Theorem construct_refines : forall bo tys data,
  construct_arguments bo tys data = spec_construct bo tys data.
Proof.
  intros bo tys data. unfold construct_arguments.
  rewrite construct_from_refines by lia. reflexivity.
Qed.

(* ---------- the spec decoder is the inverse of the packed encoding ---------- *)
Lemma len_args_bytes e args : len (args_bytes e args) = args_size args.
Proof.
  unfold args_bytes. induction args as [|a args IH]; [reflexivity|].
  cbn [flat_map args_size]. now rewrite len_app, len_field_bytes, IH.
Qed.

Lemma spec_decode_sound e tys : forall d args r, spec_decode e tys d = Some (args, r) ->
  d = args_bytes e args ++ r /\ map a_ti args = tys /\ Forall plain_argument args.
Proof.
  induction tys as [|t tys IH]; intros d args r; cbn [spec_decode].
  - intros H. injection H as <- <-. repeat split. constructor.
  - destruct (spec_field e (ti_kind_of t) d) as [[v r0]|] eqn:F; [|discriminate].
    destruct (spec_decode e tys r0) as [[args' r']|] eqn:D; [|discriminate].
    intros H. injection H as <- <-.
    apply spec_field_sound in F as (-> & Hk). apply IH in D as (-> & Hm & Hf).
    unfold args_bytes. cbn [flat_map map a_ti a_value]. fold (args_bytes e args').
    split; [now rewrite app_assoc|]. split; [now rewrite Hm|].
    constructor; [|exact Hf]. unfold plain_argument. cbn. auto.
Qed.

Lemma spec_decode_complete e args : forall r, Forall plain_argument args ->
  spec_decode e (map a_ti args) (args_bytes e args ++ r) = Some (args, r).
Proof.
  induction args as [|a args IH]; intros r Hf; [reflexivity|].
  inversion Hf as [|? ? Ha Hf']; subst.
  destruct a as [t nm un fp v]. destruct Ha as (Hn & Hu & Hp & Hk). cbn in Hn, Hu, Hp, Hk. subst.
  unfold args_bytes. cbn [flat_map map a_ti a_value spec_decode]. fold (args_bytes e args).
  rewrite <- app_assoc, spec_field_complete by exact Hk.
  now rewrite IH.
Qed.

(* construct_arguments succeeds exactly on the payloads that start with the packed encoding
   of plain arguments of the requested types *)
Theorem construct_characterised : forall bo tys d args,
  construct_arguments bo tys d = Some args <->
  (exists rest, d = args_bytes bo args ++ rest) /\ map a_ti args = tys /\ Forall plain_argument args.
Proof.
  intros bo tys d args. rewrite construct_refines. unfold spec_construct. split.
  - destruct (spec_decode bo tys d) as [[args' r]|] eqn:D; [|discriminate].
    intros H. injection H as ->. apply spec_decode_sound in D as (Hd & Hm & Hf).
    split; [now exists r|]. now split.
  - intros ((r & ->) & <- & Hf). now rewrite spec_decode_complete.
Qed.

(* ---------- a string field that is not well-formed UTF-8 ---------- *)
Lemma spec_decode_app e tys1 : forall tys2 d,
  spec_decode e (tys1 ++ tys2) d =
  match spec_decode e tys1 d with
  | Some (a1, r) =>
    match spec_decode e tys2 r with
    | Some (a2, r') => Some (a1 ++ a2, r')
    | None => None
    end
  | None => None
  end.
Proof.
  induction tys1 as [|t tys1 IH]; intros tys2 d; cbn [app spec_decode].
  - now destruct (spec_decode e tys2 d) as [[a2 r']|].
  - destruct (spec_field e (ti_kind_of t) d) as [[v r]|]; [|reflexivity].
    rewrite IH. destruct (spec_decode e tys1 r) as [[a1 r1]|]; [|reflexivity].
    now destruct (spec_decode e tys2 r1) as [[a2 r']|].
Qed.

Lemma spec_string_invalid e s rest : len s < 65536 -> valid_utf8 s = false ->
  spec_field e KString (put_uint e 2 (len s) ++ s ++ rest) = None.
Proof.
  intros Hl Hv. cbn [spec_field]. destruct (chunk_complete e s rest Hl) as [-> ->]. now rewrite Hv.
Qed.

(* ---------- fixed-point signal types are always refused ---------- *)
Lemma spec_decode_fixed_point e tys : forall d t,
  In t tys -> is_fixed_point (ti_kind_of t) = true -> spec_decode e tys d = None.
Proof.
  induction tys as [|t0 tys IH]; intros d t Hin Hfp; [destruct Hin|].
  cbn [spec_decode]. destruct Hin as [->|Hin].
  - destruct (ti_kind_of t); try discriminate; reflexivity.
  - destruct (spec_field e (ti_kind_of t0) d) as [[v r]|]; [|reflexivity].
    now rewrite (IH r t Hin Hfp).
Qed.

Theorem construct_fixed_point_refused : forall bo tys d t,
  In t tys -> is_fixed_point (ti_kind_of t) = true -> construct_arguments bo tys d = None.
Proof.
  intros bo tys d t Hin Hfp. rewrite construct_refines. unfold spec_construct.
  now rewrite (spec_decode_fixed_point bo tys d t Hin Hfp).
Qed.

(* ---------- offsets stay inside the data ---------- *)
Lemma construct_one_offset e t data off v fp off' :
  off <= len data -> construct_one e t data off = Some (v, fp, off') ->
  off < off' <= len data /\ off' = off + field_size v /\ fp = None.
Proof.
  intros Hoff H. rewrite construct_one_refines in H by exact Hoff.
  destruct (spec_field e (ti_kind_of t) _) as [[v0 r]|] eqn:F; [|discriminate].
  injection H as <- <- <-. apply spec_field_rest in F as (Hle & _).
  rewrite len_skipn_N in Hle. pose proof (field_size_pos v0).
  split; [lia|]. split; reflexivity.
Qed.

(* ---------- no panic: every run-time check of the instrumented transcription passes ---------- *)
Lemma uadd_ok bits a b : a + b < 2 ^ bits -> uadd bits a b = Val (a + b).
Proof. intros H. unfold uadd, add_chk. destruct (N.ltb_spec (a + b) (2 ^ bits)); [reflexivity|lia]. Qed.
Lemma cslice_ok data a b : a <= b -> b <= len data -> cslice data a b = Val (slice data a b).
Proof.
  intros H1 H2. unfold cslice.
  destruct (N.leb_spec a b); [|lia]. destruct (N.leb_spec b (len data)); [reflexivity|lia].
Qed.
Lemma cslice_from_ok data a : a <= len data -> cslice_from data a = Val (skipn (N.to_nat a) data).
Proof. intros H. unfold cslice_from. destruct (N.leb_spec a (len data)); [reflexivity|lia]. Qed.
Lemma cindex_ok data i : i < len data -> cindex data i = Val (nth (N.to_nat i) data x00).
Proof. intros H. unfold cindex. destruct (N.ltb_spec i (len data)); [reflexivity|lia]. Qed.
Lemma sub_chk_ok a b : b <= a -> sub_chk a b = Val (a - b).
Proof. intros H. unfold sub_chk. destruct (N.leb_spec b a); [reflexivity|lia]. Qed.

Lemma int_width_le l : int_width l <= 16.
Proof. destruct l; cbn [int_width]; lia. Qed.
Lemma flt_width_le w : flt_width w <= 8.
Proof. destruct w; cbn [flt_width]; lia. Qed.
Lemma of_pres_value {B} (x : pres value) (k : value -> option B) : x <> PPanic ->
  (let? (v, _r) := of_pres x in Val (k v)) = Val (match pres_value x with Some v => k v | None => None end).
Proof. destruct x; intros H; try reflexivity. now contradiction H. Qed.

(* every check passes because of the length test before it *)
Lemma construct_one_checked_eq bits e t data off :
  off <= len data -> len data + 65537 <= 2 ^ bits ->
  construct_one_checked bits e t data off = Val (construct_one e t data off).
Proof.
  intros Hoff Hbits. unfold construct_one_checked, construct_one.
  destruct (ti_kind_of t) as [|l|w|l|w|w| |]; cbv zeta; rewrite ?int_width_bytes, ?flt_width_bytes;
    try pose proof (int_width_le l); try pose proof (flt_width_le w).
  (* offset + width, and the test that the field is inside the data *)
  all: rewrite uadd_ok by lia; cbn [chk_bind]; (destruct (len data <? _) eqn:L; [reflexivity|]); apply N.ltb_ge in L.
  7-8: (* string, raw: the same again for the bytes behind the length field *)
    rewrite cslice_ok by lia; cbn [chk_bind]; pose proof (u16_field_bound e data off);
    rewrite uadd_ok by lia; cbn [chk_bind]; (destruct (len data <? _) eqn:L'; [reflexivity|]); apply N.ltb_ge in L';
    rewrite cslice_ok by lia; cbn [chk_bind].
  - (* bool *) rewrite sub_chk_ok by lia. cbn [chk_bind]. rewrite cindex_ok by lia. reflexivity.
  - (* signed *) rewrite cslice_from_ok by lia. cbn [chk_bind]. apply of_pres_value. auto with nopanic.
  - (* signed, fixed point *)
    rewrite cslice_ok by lia. cbn [chk_bind].
    destruct (dlt_fixed_point e w _) as [fp vo| | | |] eqn:F; try reflexivity; [|now apply dlt_fixed_point_no_panic in F].
    apply of_pres_value. auto with nopanic.
  - (* unsigned *) rewrite cslice_from_ok by lia. cbn [chk_bind]. apply of_pres_value. auto with nopanic.
  - (* unsigned, fixed point *)
    rewrite cslice_ok by lia. cbn [chk_bind].
    destruct (dlt_fixed_point e w _) as [fp vo| | | |] eqn:F; try reflexivity; [|now apply dlt_fixed_point_no_panic in F].
    apply of_pres_value. auto with nopanic.
  - (* float *) rewrite cslice_ok by lia. cbn [chk_bind]. apply of_pres_value. auto with nopanic.
  - (* string *) now destruct (valid_utf8 _).
  - (* raw *) reflexivity.
Qed.

Lemma construct_from_checked_eq bits e tys : forall data off,
  off <= len data -> len data + 65537 <= 2 ^ bits ->
  construct_from_checked bits e tys data off = Val (construct_from e tys data off).
Proof.
  induction tys as [|t tys IH]; intros data off Hoff Hbits;
    cbn [construct_from_checked construct_from]; [reflexivity|].
  rewrite construct_one_checked_eq by assumption. cbn [chk_bind].
  destruct (construct_one e t data off) as [[[v fp] off']|] eqn:C; [|reflexivity].
  apply construct_one_offset in C as (Ho & _); [|exact Hoff].
  rewrite IH by (trivial; lia). cbn [chk_bind].
  now destruct (construct_from e tys data off').
Qed.

