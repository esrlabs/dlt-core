(* Proofs/Lengths.v — the writer side: what the well-formedness predicates of Spec/WellFormed.v say, part by
   part, and the lengths of what is serialised; from these C15 (Argument::len, Message::new,
   add_storage_header, Argument::valid). *)
From Coq Require Import Lia ZifyBool ZifyN ZifyNat.
From DltV.Model Require Import Bytes Utf8 Dlt.
From DltV.Spec Require Import WellFormed WellFormedConfig.
From DltV.Proofs Require Import BytesBasics Fields.
Open Scope N_scope.

(* ---------- wf_arg, kind by kind ---------- *)
(* Signed, unsigned, fixed-point and float arguments share one shape: name and unit (both or
   neither), fixed-point data exactly for the fixed-point kinds, a fixed-width value.
   [numeric_of k] is the width of the fixed-point data, if any, and the condition on the value. *)
Definition wf_float_value (w : float_width) (v : value) : bool :=
  match w, v with W32, VF32 b => b <? 2 ^ 32 | W64, VF64 b => b <? 2 ^ 64 | _, _ => false end.
Definition numeric_of (k : ti_kind) : option (option float_width * (value -> bool)) :=
  match k with
  | KSigned l => Some (None, wf_signed_value l)
  | KSignedFixed w => Some (Some w, wf_signed_value (float_width_to_type_length w))
  | KUnsigned l => Some (None, wf_unsigned_value l)
  | KUnsignedFixed w => Some (Some w, wf_unsigned_value (float_width_to_type_length w))
  | KFloat w => Some (None, wf_float_value w)
  | KBool | KString | KRaw => None
  end.
Definition wf_fp_opt (fw : option float_width) (fp : option fixed_point) : bool :=
  match fw with Some w => wf_fp w fp | None => is_none fp end.
Definition nu_cond (vari : bool) (n u : option (list byte)) : bool :=
  Bool.eqb (is_some n) vari && Bool.eqb (is_some u) vari && wf_opt wf_text n && wf_opt wf_text u.
(* bool, string and raw arguments: a name only *)
Definition name_cond (vari : bool) (n u : option (list byte)) : bool :=
  Bool.eqb (is_some n) vari && is_none u && wf_opt wf_text n.
Definition named_value (k : ti_kind) (v : value) : bool :=
  match k, v with
  | KBool, VBool n => n <? 256 | KString, VString s => wf_text s | KRaw, VRaw bs => len bs <=? 65535
  | _, _ => false
  end.

Lemma name_cond_inv (name unit : option (list byte)) vari :
  name_cond vari name unit = true ->
  Bool.eqb (is_some name) vari = true /\ unit = None /\ wf_opt wf_text name = true.
Proof.
  unfold name_cond. intros H. apply andb_true_iff in H as [H H3]. apply andb_true_iff in H as [H1 H2].
  destruct unit; [discriminate|]. auto.
Qed.
Lemma nu_cond_inv (name unit : option (list byte)) vari :
  nu_cond vari name unit = true ->
  Bool.eqb (is_some name) vari = true /\ Bool.eqb (is_some unit) vari = true
  /\ wf_opt wf_text name = true /\ wf_opt wf_text unit = true.
Proof.
  unfold nu_cond. intros H. apply andb_true_iff in H as [H H4]. apply andb_true_iff in H as [H H3].
  apply andb_true_iff in H as [H1 H2]. auto.
Qed.
Lemma is_none_inv {A} (o : option A) : is_none o = true -> o = None.
Proof. destruct o; [discriminate | reflexivity]. Qed.

Lemma wf_arg_numeric a fw wv : numeric_of (ti_kind_of (a_ti a)) = Some (fw, wv) ->
  wf_arg a = wf_coding (ti_coding (a_ti a)) &&
             (nu_cond (ti_var_info (a_ti a)) (a_name a) (a_unit a) && wf_fp_opt fw (a_fp a) && wv (a_value a)).
Proof.
  unfold wf_arg. destruct (ti_kind_of (a_ti a)) as [|l|w|l|w|[]| |]; intros E; try discriminate E;
    injection E as <- <-; reflexivity.
Qed.
Lemma wf_arg_named a : numeric_of (ti_kind_of (a_ti a)) = None ->
  wf_arg a = wf_coding (ti_coding (a_ti a)) &&
             (name_cond (ti_var_info (a_ti a)) (a_name a) (a_unit a) && is_none (a_fp a)
              && named_value (ti_kind_of (a_ti a)) (a_value a)).
Proof.
  unfold wf_arg. destruct (ti_kind_of (a_ti a)); intros E; try discriminate E; reflexivity.
Qed.

Lemma wf_arg_cases a : wf_arg a = true ->
  wf_coding (ti_coding (a_ti a)) = true /\
  match numeric_of (ti_kind_of (a_ti a)) with
  | Some (fw, wv) =>
    nu_cond (ti_var_info (a_ti a)) (a_name a) (a_unit a) = true /\ wf_fp_opt fw (a_fp a) = true /\ wv (a_value a) = true
  | None =>
    name_cond (ti_var_info (a_ti a)) (a_name a) (a_unit a) = true /\ a_fp a = None
    /\ named_value (ti_kind_of (a_ti a)) (a_value a) = true
  end.
Proof.
  intros W. destruct (numeric_of (ti_kind_of (a_ti a))) as [[fw wv]|] eqn:N.
  - rewrite (wf_arg_numeric a fw wv N), !andb_true_iff in W. tauto.
  - rewrite (wf_arg_named a N), !andb_true_iff in W. destruct W as (Hc & (Hn & Hf) & Hv).
    apply is_none_inv in Hf. tauto.
Qed.

Lemma numeric_valid a fw wv :
  numeric_of (ti_kind_of (a_ti a)) = Some (fw, wv) -> wv (a_value a) = true -> arg_valid a = true.
Proof.
  unfold arg_valid. destruct (ti_kind_of (a_ti a)) as [|l|w|l|w|[]| |]; intros E; try discriminate E;
    try reflexivity; injection E as _ <-; destruct (a_value a); (discriminate || reflexivity).
Qed.
Lemma named_valid a :
  numeric_of (ti_kind_of (a_ti a)) = None -> named_value (ti_kind_of (a_ti a)) (a_value a) = true ->
  arg_valid a = true.
Proof.
  unfold arg_valid. destruct (ti_kind_of (a_ti a)); intros E; try discriminate E; try reflexivity.
  destruct (a_value a); (discriminate || reflexivity).
Qed.

(* ---------- the parts of the other predicates ---------- *)
Lemma wf_id_inv s : wf_id s = true -> len s <= 4 /\ no_nul s = true /\ valid_utf8 s = true.
Proof.
  unfold wf_id. intros H. apply andb_true_iff in H as [H Hv]. apply andb_true_iff in H as [Hl Hn].
  apply N.leb_le in Hl. auto.
Qed.
Lemma wf_id_len s : wf_id s = true -> len s <= 4.
Proof. intros H. now apply wf_id_inv in H. Qed.
Lemma wf_opt_id_len o : wf_opt wf_id o = true -> wf_opt (fun s : list byte => len s <=? 4) o = true.
Proof. destruct o as [s|]; [|reflexivity]. intros H. apply N.leb_le, wf_id_len, H. Qed.

(* the bounds in the form the field writers ask for *)
Lemma wf_storage_inv s : wf_storage s = true ->
  ts_secs (sh_ts s) < 256 ^ N.of_nat 4 /\ ts_micros (sh_ts s) < 256 ^ N.of_nat 4 /\ wf_id (sh_ecu s) = true.
Proof.
  unfold wf_storage. intros H. apply andb_true_iff in H as [H He]. apply andb_true_iff in H as [H1 H2].
  apply N.ltb_lt in H1, H2. change (256 ^ N.of_nat 4) with (2 ^ 32). auto.
Qed.

Lemma wf_text_inv s : wf_text s = true -> len s <= 65534 /\ no_nul s = true /\ valid_utf8 s = true.
Proof.
  unfold wf_text. intros H. apply andb_true_iff in H as [H Hv]. apply andb_true_iff in H as [Hl Hn].
  apply N.leb_le in Hl. auto.
Qed.
Lemma len_plus1_ok s : len s < 65535 -> len_plus1_overflows s = false.
Proof.
  intros H. unfold len_plus1_overflows. rewrite N.mod_small by lia.
  destruct (N.eqb_spec (len s) 65535); [lia | reflexivity].
Qed.

Lemma wf_std_inv h : wf_std h = true ->
  h_version h < 8 /\ h_mcnt h < 256 /\ wf_opt wf_id (h_ecu h) = true
  /\ wf_opt (fun v => v <? 2 ^ 32) (h_session h) = true /\ wf_opt (fun v => v <? 2 ^ 32) (h_timestamp h) = true.
Proof.
  unfold wf_std. intros H. apply andb_true_iff in H as [H Ht]. apply andb_true_iff in H as [H Hs].
  apply andb_true_iff in H as [H He]. apply andb_true_iff in H as [Hv Hm]. apply N.ltb_lt in Hv, Hm. auto.
Qed.

Lemma wf_ext_inv x : wf_ext x = true ->
  e_noar x < 256 /\ wf_mtype (e_mtype x) = true /\ wf_id (e_apid x) = true /\ wf_id (e_ctid x) = true.
Proof.
  unfold wf_ext. intros H. apply andb_true_iff in H as [H Hc]. apply andb_true_iff in H as [H Ha].
  apply andb_true_iff in H as [Hn Ht]. apply N.ltb_lt in Hn. auto.
Qed.

Record wf_body (h : std_header) (x : option ext_header) (p : payload) : Prop := {
  wb_std : wf_std h = true;
  wb_has : h_has_ext h = is_some x;
  wb_ext : wf_opt wf_ext x = true;
  wb_kind : wf_kind x p = true;
  wb_pl : h_payload_length h = len (payload_bytes (h_endian h) p);
  wb_len : overall_length_raw h <= 65535 }.

Lemma wf_message_inv m : wf_message m = true ->
  wf_opt wf_storage (m_storage m) = true /\ wf_body (m_header m) (m_ext m) (m_payload m).
Proof.
  unfold wf_message, len_ok. intros H.
  apply andb_true_iff in H as [H H6]. apply andb_true_iff in H as [H H5]. apply andb_true_iff in H as [H H4].
  apply andb_true_iff in H as [H H3]. apply andb_true_iff in H as [H1 H2].
  apply andb_true_iff in H6 as [H6 H7]. apply N.eqb_eq in H6. apply N.leb_le in H7.
  apply Bool.eqb_prop in H3. split; [exact H1|]. now constructor.
Qed.

Lemma overall_length_small h : overall_length_raw h <= 65535 -> overall_length h = overall_length_raw h.
Proof. intros H. apply N.mod_small. lia. Qed.

Lemma wf_message_storage s h x p :
  wf_message (mkMsg s h x p) = wf_opt wf_storage s && wf_message (mkMsg None h x p).
Proof.
  unfold wf_message. cbn [m_storage m_header m_ext m_payload wf_opt andb]. rewrite <- !andb_assoc. reflexivity.
Qed.

(* ---------- lengths of the elementary writers ---------- *)
Lemma len_put_zstring s : len s <= 4 -> len (put_zstring s 4) = 4.
Proof.
  intros H. unfold put_zstring, zeros. rewrite len_app, len_repeat. unfold len in *. lia.
Qed.

Lemma len_ti_bytes e t : len (ti_bytes e t) = 4.
Proof. unfold ti_bytes. apply (len_put_uint e 4). Qed.

Lemma len_one {A} (x : A) : len [x] = 1.
Proof. reflexivity. Qed.

(* ---------- Argument::len ---------- *)
Lemma len_buf_ti_name e t name : len (buf_ti_name e t name) = 4 + name_space name.
Proof.
  unfold buf_ti_name, name_space. rewrite len_app, len_ti_bytes.
  destruct name as [n|].
  - rewrite !len_app, len_put_uint, len_one. lia.
  - rewrite len_nil. lia.
Qed.

Lemma len_buf_ti_name_unit e t name unit fp :
  nu_cond (ti_var_info t) name unit = true ->
  len (buf_ti_name_unit e t name unit fp) = 4 + name_space name + name_space unit + len (fp_bytes e fp).
Proof.
  intros H. apply nu_cond_inv in H as (Hn & Hu & _). unfold buf_ti_name_unit, name_space.
  rewrite !len_app, len_ti_bytes.
  destruct (ti_var_info t); destruct name as [n|]; try discriminate Hn;
    destruct unit as [u|]; try discriminate Hu; clear Hn Hu.
  - rewrite !len_app, !len_put_uint, !len_one. lia.
  - rewrite len_nil. lia.
Qed.

Lemma len_signed_value e l v :
  wf_signed_value l v = true -> len (signed_value_bytes e v) = N.of_nat (type_length_bytes l).
Proof.
  destruct l, v; cbn [wf_signed_value]; intros H; try discriminate H;
    cbn [signed_value_bytes type_length_bytes]; apply len_put_sint.
Qed.
Lemma len_unsigned_value e l v :
  wf_unsigned_value l v = true -> len (unsigned_value_bytes e v) = N.of_nat (type_length_bytes l).
Proof.
  destruct l, v; cbn [wf_unsigned_value]; intros H; try discriminate H;
    cbn [unsigned_value_bytes type_length_bytes]; apply len_put_uint.
Qed.
Lemma len_float_value e w v :
  wf_float_value w v = true -> len (float_value_bytes e v) = N.of_nat (float_width_bytes w).
Proof.
  destruct w, v; cbn [wf_float_value]; intros H; try discriminate H;
    cbn [float_value_bytes float_width_bytes]; apply len_put_uint.
Qed.

Lemma type_length_of_width w :
  type_length_bytes (float_width_to_type_length w) = float_width_bytes w.
Proof. destruct w; reflexivity. Qed.

(* without fixed-point data nothing is written; with it, Argument::len counts it through
   fixed_point_capacity, together with the value *)
Lemma len_fp_bytes e fw a : wf_fp_opt fw (a_fp a) = true ->
  match fw with
  | Some w => fixed_point_capacity a w = N.of_nat (float_width_bytes w) + len (fp_bytes e (a_fp a))
  | None => len (fp_bytes e (a_fp a)) = 0
  end.
Proof.
  unfold fixed_point_capacity. destruct fw as [w|], (a_fp a) as [[q o]|]; intros H; try discriminate H;
    [|reflexivity]. f_equal.
  cbn [fp_bytes fp_quant fp_offset]. rewrite len_app, len_put_uint.
  destruct o; cbn [fp_value_width fp_offset_bytes]; rewrite len_put_sint; reflexivity.
Qed.

Lemma arg_len_bytes : forall a e, wf_arg a = true -> arg_len a = len (arg_bytes e a).
Proof.
  intros a e W. apply wf_arg_cases in W as [_ W]. unfold arg_len, arg_bytes.
  destruct (numeric_of (ti_kind_of (a_ti a))) as [[fw wv]|] eqn:N.
  - destruct W as (Hnu & Hf & Hv).
    pose proof (len_buf_ti_name_unit e _ _ _ (a_fp a) Hnu) as Lb.
    pose proof (len_fp_bytes e fw a Hf) as Lf. clear Hnu Hf.
    revert N. destruct (ti_kind_of (a_ti a)) as [|l|w|l|w|w| |]; intros N; try discriminate N;
      injection N as <- <-; rewrite len_app, Lb.
    + rewrite (len_signed_value _ _ _ Hv), Lf. lia.
    + rewrite (len_signed_value _ _ _ Hv), Lf, type_length_of_width. lia.
    + rewrite (len_unsigned_value _ _ _ Hv), Lf. lia.
    + rewrite (len_unsigned_value _ _ _ Hv), Lf, type_length_of_width. lia.
    + rewrite (len_float_value _ _ _ Hv), Lf. lia.
  - destruct W as (Hn & _ & Hv). apply name_cond_inv in Hn as (Hn & _ & _).
    unfold name_space. revert N Hv. destruct (ti_kind_of (a_ti a)); intros N Hv; try discriminate N; clear N.
    + rewrite len_app, len_buf_ti_name, len_one. unfold name_space. lia.
    + destruct (a_value a); try discriminate Hv.
      destruct (ti_var_info (a_ti a)); destruct (a_name a) as [n|]; try discriminate Hn; clear Hn Hv;
        rewrite !len_app, len_ti_bytes, !len_put_uint, !len_one; lia.
    + destruct (a_value a); try discriminate Hv.
      destruct (ti_var_info (a_ti a)); destruct (a_name a) as [n|]; try discriminate Hn; clear Hn Hv;
        rewrite !len_app, len_ti_bytes, !len_put_uint, ?len_one; lia.
Qed.

(* ---------- lengths of the headers and of the message ---------- *)
Lemma len_storage_prefix secs micros ecu : len ecu <= 4 ->
  len (pat_DLT1 ++ put_uint LE 4 secs ++ put_uint LE 4 micros ++ put_zstring ecu 4) = 16.
Proof. intros H. rewrite !len_app, !len_put_uint, (len_put_zstring _ H). reflexivity. Qed.

Lemma len_storage_header_bytes s : wf_storage s = true -> len (storage_header_bytes s) = 16.
Proof.
  intros H. apply wf_storage_inv in H as (_ & _ & H). apply len_storage_prefix, wf_id_len, H.
Qed.

Definition std_header_length (h : std_header) : N :=
  4 + (if is_some (h_ecu h) then 4 else 0) + (if is_some (h_session h) then 4 else 0)
    + (if is_some (h_timestamp h) then 4 else 0).

Lemma len_std_header_bytes h :
  wf_opt wf_id (h_ecu h) = true -> len (std_header_bytes h) = std_header_length h.
Proof.
  intros H. unfold std_header_bytes, std_header_length.
  rewrite !len_app, len_put_uint, len_cons, len_one.
  assert (L : len (match h_ecu h with Some id => put_zstring id 4 | None => [] end)
              = if is_some (h_ecu h) then 4 else 0).
  { destruct (h_ecu h) as [id|]; [|reflexivity]. apply len_put_zstring, wf_id_len, H. }
  rewrite L. clear H L.
  destruct (h_session h), (h_timestamp h); cbn [is_some]; rewrite ?len_put_uint; unfold len; cbn [length]; lia.
Qed.

Lemma len_ext_header_bytes x : wf_ext x = true -> len (ext_header_bytes x) = 10.
Proof.
  intros H. apply wf_ext_inv in H as (_ & _ & Ha & Hc). unfold ext_header_bytes.
  rewrite !len_app, len_cons, len_one, !len_put_zstring by (now apply wf_id_len). reflexivity.
Qed.

Lemma overall_length_raw_eq h :
  overall_length_raw h = std_header_length h + (if h_has_ext h then 10 else 0) + h_payload_length h.
Proof.
  unfold overall_length_raw, std_header_length.
  destruct (h_ecu h), (h_session h), (h_timestamp h); reflexivity.
Qed.

Lemma len_message_bytes_wf m :
  wf_opt wf_storage (m_storage m) = true -> wf_std (m_header m) = true ->
  h_has_ext (m_header m) = is_some (m_ext m) -> wf_opt wf_ext (m_ext m) = true ->
  len (message_bytes m) + h_payload_length (m_header m) =
  (if is_some (m_storage m) then 16 else 0) + overall_length_raw (m_header m)
  + len (payload_bytes (h_endian (m_header m)) (m_payload m)).
Proof.
  intros Ws Wh He Wx. unfold message_bytes. destruct (wf_std_inv _ Wh) as (_ & _ & Hecu & _).
  rewrite !len_app, (len_std_header_bytes _ Hecu), overall_length_raw_eq, He.
  assert (E1 : len (match m_storage m with Some s => storage_header_bytes s | None => [] end)
               = if is_some (m_storage m) then 16 else 0)
    by (destruct (m_storage m) as [s|]; [apply len_storage_header_bytes, Ws | reflexivity]).
  assert (E2 : len (match m_ext m with Some x => ext_header_bytes x | None => [] end)
               = if is_some (m_ext m) then 10 else 0)
    by (destruct (m_ext m) as [x|]; [apply len_ext_header_bytes, Wx | reflexivity]).
  rewrite E1, E2. clear. lia.
Qed.

Lemma len_wf_message m : wf_message m = true ->
  len (message_bytes m) = (if is_some (m_storage m) then 16 else 0) + overall_length (m_header m).
Proof.
  intros W. apply wf_message_inv in W as [Ws [Wh He Wx _ Hp Hr]].
  pose proof (len_message_bytes_wf m Ws Wh He Wx) as L.
  rewrite (overall_length_small _ Hr). clear - L Hp. lia.
Qed.

(* ---------- Message::new ---------- *)
Definition new_ext (p : payload) (x : option ext_config) : option ext_header :=
  match x with
  | Some x => Some (mkExt (payload_is_verbose p) (payload_arg_count p) (c_mtype x) (c_apid x) (c_ctid x))
  | None => None
  end.

Lemma payload_arg_count_lt p : payload_arg_count p < 256.
Proof.
  destruct p; cbn [payload_arg_count]; try lia; apply N.mod_lt; lia.
Qed.

Lemma mod_eqb_le n : (n mod 256 =? n) && (n <=? 255) = (n <=? 255).
Proof.
  destruct (n <=? 255) eqn:E; [|apply andb_false_r].
  apply N.leb_le in E. rewrite N.mod_small by lia. rewrite N.eqb_refl. reflexivity.
Qed.

Lemma new_kind p x : wf_kind (new_ext p x) p = wf_cfg_kind x p.
Proof.
  destruct p as [args|id bs|ct bs|sl], x as [x|];
    cbn [new_ext wf_kind wf_cfg_kind e_verbose e_noar e_mtype payload_is_verbose payload_arg_count
         negb andb]; try reflexivity.
  - rewrite mod_eqb_le. reflexivity.
  - rewrite mod_eqb_le. reflexivity.
Qed.

Lemma new_wf_ext p x : wf_opt wf_ext (new_ext p x) = wf_opt wf_ext_config x.
Proof.
  destruct x as [x|]; [|reflexivity].
  cbn [new_ext wf_opt]. unfold wf_ext, wf_ext_config. cbn [e_noar e_mtype e_apid e_ctid].
  pose proof (payload_arg_count_lt p) as H. apply N.ltb_lt in H. rewrite H. reflexivity.
Qed.

Lemma new_has_ext p x : Bool.eqb (is_some x) (is_some (new_ext p x)) = true.
Proof. destruct x; reflexivity. Qed.

Lemma message_new_eq c sh :
  message_new c sh =
  mkMsg sh
    (mkStd (c_version c) (c_endian c) (is_some (c_ext c)) (c_counter c) (c_ecu c) (c_session c)
       (c_timestamp c) (len (payload_bytes (c_endian c) (c_payload c)) mod 65536))
    (new_ext (c_payload c) (c_ext c)) (c_payload c).
Proof. reflexivity. Qed.

Lemma new_len_ok c sh :
  len_ok (message_new c sh) = (cfg_total_length c <=? 65535).
Proof.
  unfold len_ok. rewrite overall_length_raw_eq, message_new_eq.
  cbn [m_header m_payload h_payload_length h_endian h_has_ext].
  unfold std_header_length, cfg_total_length. cbn [h_ecu h_session h_timestamp].
  set (P := len (payload_bytes (c_endian c) (c_payload c))).
  set (a := if is_some (c_ecu c) then 4 else 0).
  set (b := if is_some (c_session c) then 4 else 0).
  set (d := if is_some (c_timestamp c) then 4 else 0).
  set (x := if is_some (c_ext c) then 10 else 0).
  destruct (N.lt_ge_cases P 65536) as [L|G].
  - rewrite N.mod_small by exact L. rewrite N.eqb_refl. reflexivity.
  - assert (Hm : P mod 65536 < 65536) by (apply N.mod_lt; lia).
    assert (E1 : (P mod 65536 =? P) = false) by (apply N.eqb_neq; lia).
    rewrite E1. symmetry. apply N.leb_gt. lia.
Qed.

Lemma new_wf_eq c sh :
  wf_message (message_new c sh) = wf_opt wf_storage sh && wf_config c.
Proof.
  unfold wf_message. rewrite new_len_ok. rewrite message_new_eq.
  cbn [m_storage m_header m_ext m_payload h_has_ext].
  rewrite new_has_ext, new_kind, new_wf_ext, andb_true_r.
  unfold wf_std, wf_config. cbn [h_version h_mcnt h_ecu h_session h_timestamp].
  rewrite <- !andb_assoc. reflexivity.
Qed.

Lemma new_wf c sh :
  wf_config c = true -> wf_opt wf_storage sh = true -> wf_message (message_new c sh) = true.
Proof. intros Hc Hs. rewrite new_wf_eq, Hc, Hs. reflexivity. Qed.

Lemma new_consistent : forall c sh, wf_config c = true -> wf_opt wf_storage sh = true ->
  let m := message_new c sh in
  h_payload_length (m_header m) = len (payload_bytes (c_endian c) (c_payload c)) /\
  byte_len m = len (message_bytes (strip_storage m)) /\
  len (message_bytes m) = (if is_some sh then 16 else 0) + byte_len m /\
  (forall x, m_ext m = Some x ->
     e_verbose x = required_verbose (c_payload c) /\ e_noar x = required_noar (c_payload c)) /\
  wf_message m = true.
Proof.
  intros c sh Hc Hs m. pose proof (new_wf c sh Hc Hs) as Hwf.
  split; [exact (wb_pl _ _ _ (proj2 (wf_message_inv _ Hwf)))|].
  split; [symmetry; exact (len_wf_message _ (new_wf c None Hc eq_refl))|].
  split; [exact (len_wf_message _ Hwf)|]. split; [|exact Hwf].
  (* the verbose flag is what the constructor sets; the argument count is in [wf_kind] *)
  intros x Hx. pose proof (wb_kind _ _ _ (proj2 (wf_message_inv m Hwf))) as K. rewrite Hx in K.
  assert (Ex : e_verbose x = payload_is_verbose (c_payload c) /\ e_noar x = payload_arg_count (c_payload c)).
  { subst m. rewrite message_new_eq in Hx. cbn [m_ext] in Hx.
    destruct (c_ext c); [|discriminate Hx]. injection Hx as <-. now split. }
  destruct Ex as [Ev En]. rewrite Ev. change (m_payload m) with (c_payload c) in K. clear Hx Hwf.
  destruct (c_payload c);
    cbn [wf_kind payload_is_verbose required_verbose required_noar payload_arg_count] in *;
    (split; [reflexivity|]); try exact En.
  - apply andb_true_iff in K as [K _]. apply andb_true_iff in K as [K _]. apply andb_true_iff in K as [K _].
    apply andb_true_iff in K as [_ Kn]. now apply N.eqb_eq.
  - apply andb_true_iff in K as [K _]. apply andb_true_iff in K as [K _]. apply andb_true_iff in K as [K _].
    apply andb_true_iff in K as [_ Kn]. now apply N.eqb_eq.
Qed.

(* ---------- add_storage_header ---------- *)
Lemma storage_bytes : forall m ts,
  message_bytes (add_storage_header m ts) =
  pat_DLT1 ++ put_uint LE 4 (ts_secs ts) ++ put_uint LE 4 (ts_micros ts)
  ++ put_zstring (storage_ecu m) 4 ++ message_bytes (strip_storage m).
Proof.
  intros m ts. unfold message_bytes, add_storage_header, strip_storage, storage_header_bytes, storage_ecu.
  cbn [m_storage m_header m_ext m_payload sh_ts sh_ecu app].
  rewrite <- !app_assoc. reflexivity.
Qed.

Lemma storage_ecu_len m :
  wf_opt (fun s => len s <=? 4) (h_ecu (m_header m)) = true -> len (storage_ecu m) <= 4.
Proof.
  unfold storage_ecu. destruct (h_ecu (m_header m)) as [e|]; cbn [wf_opt]; intros H.
  - now apply N.leb_le.
  - cbn. lia.
Qed.

Lemma storage_prepends_16 : forall m ts,
  wf_opt (fun s => len s <=? 4) (h_ecu (m_header m)) = true ->
  exists pre, message_bytes (add_storage_header m ts) = pre ++ message_bytes (strip_storage m) /\
              len pre = 16 /\
              pre = pat_DLT1 ++ put_uint LE 4 (ts_secs ts) ++ put_uint LE 4 (ts_micros ts)
                    ++ put_zstring (storage_ecu m) 4.
Proof.
  intros m ts H. eexists. split; [|split; [|reflexivity]].
  - rewrite storage_bytes, <- !app_assoc. reflexivity.
  - exact (len_storage_prefix _ _ _ (storage_ecu_len m H)).
Qed.

Lemma strip_storage_id m : m_storage m = None -> strip_storage m = m.
Proof. destruct m as [s h x p]. cbn [m_storage]. intros ->. reflexivity. Qed.

Lemma storage_byte_len m ts : byte_len (add_storage_header m ts) = byte_len m.
Proof. reflexivity. Qed.

Lemma wf_id_default : wf_id DEFAULT_ECU_ID = true.
Proof. vm_compute. reflexivity. Qed.

Lemma storage_wf : forall m ts,
  wf_message m = true -> ts_secs ts < 2 ^ 32 -> ts_micros ts < 2 ^ 32 ->
  wf_message (add_storage_header m ts) = true.
Proof.
  intros [s h x p] ts W Hs Hu. destruct (wf_std_inv _ (wb_std _ _ _ (proj2 (wf_message_inv _ W)))) as (_ & _ & He & _).
  rewrite wf_message_storage in W. apply andb_true_iff in W as [_ W].
  unfold add_storage_header. cbn [m_header m_ext m_payload] in *. rewrite wf_message_storage, W, andb_true_r.
  unfold wf_opt, wf_storage. cbn [sh_ts sh_ecu].
  apply N.ltb_lt in Hs, Hu. rewrite Hs, Hu. cbn [andb].
  destruct (h_ecu h) as [e|]; [exact He | exact wf_id_default].
Qed.
