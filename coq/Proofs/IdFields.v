(* Proofs/IdFields.v — [ids_are_fields]: the id fields of a parsed message (ECU id of the storage header and of
   the standard header, application and context id of the extended header) are results of [zstring 4] at the
   field's offset (Properties/C19b.v).  With c19_enough (Properties/C19.v): each id is the longest valid-UTF-8
   prefix of the bytes before the first NUL among the 4 bytes of its field. *)
From DltV.Model Require Import Bytes Nom Dlt Parse.
From DltV.Proofs Require Import Consumption.
Open Scope N_scope.

(* which ids exist is decided by the mode (storage header) and by bits WEID (4) and UEH (1) of the header-type
   byte *)
Definition ids_are_fields (sh : bool) (bs : list byte) (m : message) (skip : N) (after : list byte) : Prop :=
  let std_len := N.to_nat (calculate_standard_header_length (htyp_of after)) in
  match m_storage m with
  | Some s => sh = true /\ exists r, zstring 4 (skipn (N.to_nat skip + 12) bs) = POk (sh_ecu s) r
  | None => sh = false
  end /\
  match h_ecu (m_header m) with
  | Some id => flag (htyp_of after) 4 = true /\ exists r, zstring 4 (skipn 4 after) = POk id r
  | None => flag (htyp_of after) 4 = false
  end /\
  match m_ext m with
  | Some x => flag (htyp_of after) 1 = true /\
              exists r1 r2, zstring 4 (skipn (std_len + 2) after) = POk (e_apid x) r1 /\
                            zstring 4 (skipn (std_len + 6) after) = POk (e_ctid x) r2
  | None => flag (htyp_of after) 1 = false
  end.
