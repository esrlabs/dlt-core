(* Proofs/FibexPretty.v — the FIBEX loader is insensitive to the padding of Spec/FibexPretty.v (C11b).
   Two event lists related by [pad0] drive the reader through the same events (a simulation of
   read_event, then of the three loops); [pad0b] decides [pad0] for the examples; the noise of
   [pad_elements] is dealt with in FibexLoad.v. *)
From Coq Require Import Lia ZifyBool ZifyN ZifyNat.
From Coq.Strings Require Import Ascii String.
From DltV.Model Require Import Bytes RustInt Dlt Fibex FibexWire.
From DltV.Spec Require Import FibexSpec FibexPretty.
From Coq Require Import Sorting.Permutation.
From DltV.Proofs Require Import BytesBasics FibexTerm FibexLookup FibexDenote FibexLoad FibexOrder.
Open Scope N_scope.

Lemma opt_bytes_eqb_eq a b : opt_bytes_eqb a b = true -> a = b.
Proof.
  destruct a, b; cbn; try discriminate; [|reflexivity]. intros H. apply bytes_eqb_eq in H. congruence.
Qed.

Lemma list_eqb_eq {A} (eqb : A -> A -> bool) :
  (forall a b, eqb a b = true -> a = b) -> forall l l', list_eqb eqb l l' = true -> l = l'.
Proof.
  intros Heq. induction l as [|a l IH]; intros [|b l']; cbn [list_eqb]; try discriminate; [reflexivity|].
  intros H. apply andb_true_iff in H. destruct H as [H1 H2]. f_equal; [apply Heq, H1|apply IH, H2].
Qed.

Lemma xattr_eqb_eq a b : xattr_eqb a b = true -> a = b.
Proof.
  destruct a, b; cbn; try discriminate; [reflexivity|]. intros H. apply andb_true_iff in H.
  destruct H as [H1 H2]. apply bytes_eqb_eq in H1. apply opt_bytes_eqb_eq in H2. congruence.
Qed.

Lemma xevent_eqb_eq a b : xevent_eqb a b = true -> a = b.
Proof.
  destruct a, b; cbn; try discriminate; try reflexivity; intros H;
    try (apply andb_true_iff in H; destruct H as [H1 H2]; apply bytes_eqb_eq in H1;
         apply (list_eqb_eq _ xattr_eqb_eq) in H2; congruence).
  - apply bytes_eqb_eq in H. congruence.
  - apply opt_bytes_eqb_eq in H. congruence.
Qed.

Definition retarget (l : list xevent) (s : step) : step :=
  match s with
  | SCont r => SCont (set_events l r)
  | SRet e r => SRet e (set_events l r)
  | SErr => SErr
  | SPanic => SPanic
  end.

Lemma retarget_need {A} l (o : option A) k k' :
  (forall a, k' a = retarget l (k a)) -> need o k' = retarget l (need o k).
Proof. intros H. destruct o; [apply H|reflexivity]. Qed.

Lemma retarget_attr_into l a k k' :
  (forall v, k' v = retarget l (k v)) -> attr_into a k' = retarget l (attr_into a k).
Proof. intros H. destruct a; [apply H|reflexivity|reflexivity]. Qed.

Lemma retarget_attr_ok l a k k' :
  (forall v, k' v = retarget l (k v)) -> attr_ok a k' = retarget l (attr_ok a k).
Proof. intros H. destruct a; [apply H|apply H|reflexivity]. Qed.

(* the loader asks an attribute list for three keys only *)
Lemma ev_sim_step e e' l r :
  ev_sim e e' -> read_event_step (set_events (e' :: l) r) = read_event_step (set_events (e :: l) r).
Proof.
  intros [e0|n a a' (H1 & H2 & H3)|n a a' (H1 & H2 & H3)]; [reflexivity| |];
    unfold read_event_step, start_arm, empty_arm, id_attr, id_ref_attr, attr; cbn [r_events set_events];
    rewrite ?H1, ?H2, ?H3; reflexivity.
Qed.

(* the events left when the step on [e :: l] goes on or returns *)
Definition after (e : xevent) (l : list xevent) : list xevent := if reads_next e then tl l else l.

(* a step looks at the events behind the first one only to read the text behind a text-reading
   Start event; the rest it hands on as it is *)
Lemma step_tail e l1 l2 r :
  (reads_next e = true -> hd_error l1 = hd_error l2) ->
  read_event_step (set_events (e :: l2) r)
  = retarget (after e l2) (read_event_step (set_events (e :: l1) r)).
Proof.
  intros Hh. unfold read_event_step, after. cbn [r_events set_events].
  destruct r as [evs f1 f2 f3 f4 f5 f6 f7 f8 f9 f10 f11 f12].
  destruct e as [n a|n a|n|t| |]; cbn [reads_next] in *; try reflexivity.
  - unfold start_arm, text_into, usize_into, read_usize.
    destruct (classify n); cbn [reads_next_tag text_tag num_tag orb] in *;
      try (apply retarget_attr_into; intros v; reflexivity);
      try (apply retarget_attr_ok; intros v; reflexivity);
      try reflexivity;
      specialize (Hh eq_refl); destruct l1 as [|x l1], l2 as [|x2 l2]; try discriminate Hh;
      try reflexivity;
      injection Hh as <-; destruct x as [xn xa|xn xa|xn|[t|]| |]; cbn [read_text tl];
      try destruct (usize_from_str t); reflexivity.
  - unfold empty_arm.
    destruct (classify n);
      try (apply retarget_attr_into; intros v; reflexivity);
      try (apply retarget_attr_ok; intros v; reflexivity);
      reflexivity.
  - unfold end_arm.
    destruct (classify n); repeat (apply retarget_need; intros ?); reflexivity.
Qed.

Definition fields_eq (r r' : reader) : Prop := set_events [] r = set_events [] r'.

Lemma fields_eq_set r r' : fields_eq r r' -> r' = set_events (r_events r') r.
Proof.
  unfold fields_eq. destruct r, r'. cbn. intros [=]. subst. reflexivity.
Qed.
Lemma fields_eq_set_events l r : fields_eq r (set_events l r).
Proof. reflexivity. Qed.
Lemma fields_eq_refl r : fields_eq r r.
Proof. reflexivity. Qed.
Lemma set_events_events l r : r_events (set_events l r) = l.
Proof. reflexivity. Qed.

Lemma ev_sim_reads_next e e' : ev_sim e e' -> reads_next e' = reads_next e.
Proof. intros H. destruct H; reflexivity. Qed.

Definition rsim (r r' : reader) : Prop := fields_eq r r' /\ pad0 (r_events r) (r_events r').

Definition loop_res_sim {A} (a b : res (A * reader)) : Prop :=
  match a, b with
  | ROk (p, r1), ROk (p', r1') => p = p' /\ rsim r1 r1'
  | RErr, RErr => True
  | _, _ => False
  end.

Lemma run_event_sim_eof r r' :
  r_events r = [] -> r_events r' = [] -> fields_eq r r' -> loop_res_sim (run_event r) (run_event r').
Proof.
  intros He He' Hf. rewrite (run_event_eq r), (run_event_eq r'). unfold read_event_step.
  rewrite He, He'. split; [reflexivity|]. split; [exact Hf|]. rewrite He, He'. constructor.
Qed.

Lemma run_event_sim_step e e' l l' r r' :
  ev_sim e e' -> (reads_next e = true -> hd_error l = hd_error l') ->
  r_events r = e :: l -> r_events r' = e' :: l' -> fields_eq r r' ->
  (forall r1 r1', r_events r1 = after e l -> r_events r1' = after e l' -> fields_eq r1 r1' ->
     loop_res_sim (run_event r1) (run_event r1')) ->
  pad0 (after e l) (after e l') ->
  loop_res_sim (run_event r) (run_event r').
Proof.
  intros Hs Hh He He' Hf IH Hp. rewrite (run_event_eq r), (run_event_eq r').
  rewrite (fields_eq_set r r' Hf), He', (ev_sim_step e e' l' r Hs), (step_tail e l l' r Hh).
  pose proof (step_tail e l l r (fun _ => eq_refl)) as Hself.
  rewrite (set_events_same (e :: l) r He) in *.
  destruct (read_event_step_ok r) as [Hok|Hok];
    destruct (read_event_step r) as [r1|e1 r1| |]; try discriminate Hok; cbn [retarget] in *.
  - injection Hself as E. split; [reflexivity|]. split; [apply fields_eq_set_events|].
    rewrite E. exact Hp.
  - injection Hself as E. apply IH; [rewrite E; reflexivity|reflexivity|apply fields_eq_set_events].
  - injection Hself as E. split; [reflexivity|]. split; [apply fields_eq_set_events|].
    rewrite E. exact Hp.
  - exact I.
  - exact Hok.
Qed.

Lemma run_event_sim : forall l l', pad0 l l' ->
  forall r r', r_events r = l -> r_events r' = l' -> fields_eq r r' ->
  loop_res_sim (run_event r) (run_event r').
Proof.
  induction 1 as [|e l l' Hi Hp IH|e e' l l' Hs Hr Hp IH|e e' x l l' Hs Hr Hp IH|e e' Hs Hr];
    intros r r' He He' Hf.
  - apply run_event_sim_eof; assumption.
  - rewrite (run_event_eq r'), (inert_step e l' r' Hi He'). apply IH; [exact He|reflexivity|exact Hf].
  - apply (run_event_sim_step e e' l l' r r' Hs ltac:(congruence) He He' Hf);
      unfold after; rewrite Hr; assumption.
  - apply (run_event_sim_step e e' (x :: l) (x :: l') r r' Hs (fun _ => eq_refl) He He' Hf);
      unfold after; rewrite Hr; assumption.
  - apply (run_event_sim_step e e' [] [] r r' Hs (fun _ => eq_refl) He He' Hf);
      unfold after; rewrite Hr; [apply run_event_sim_eof|constructor].
Qed.

Lemma run_event_rsim r r' :
  rsim r r' ->
  match run_event r, run_event r' with
  | ROk (e, r1), ROk (e', r1') =>
    e = e' /\ rsim r1 r1' /\ (pending r1 <= pending r)%nat /\
    (e <> EEof -> (pending r1 < pending r)%nat)
  | RErr, RErr => True
  | _, _ => False
  end.
Proof.
  intros [Hf Hp]. pose proof (run_event_sim _ _ Hp r r' eq_refl eq_refl Hf) as H.
  pose proof (run_event_inv r) as Hi.
  destruct (run_event r) as [[e r1]| | |], (run_event r') as [[e' r1']| | |]; try exact H.
  destruct H as [He Hs]. tauto.
Qed.

Lemma run_pdu_sim : forall r r' acc, rsim r r' -> loop_res_sim (run_pdu r acc) (run_pdu r' acc).
Proof.
  induction r as [r IH] using (induction_ltof1 _ pending). unfold ltof in IH. intros r' acc Hs.
  rewrite (run_pdu_eq r), (run_pdu_eq r'). pose proof (run_event_rsim r r' Hs) as H.
  destruct (run_event r) as [[e r1]| | |], (run_event r') as [[e' r1']| | |]; try contradiction; [|exact I].
  destruct H as (<- & Hs1 & _ & Hlt).
  destruct e; try (apply IH; [apply Hlt; discriminate|exact Hs1]).
  - split; [reflexivity|exact Hs1].
  - exact I.
Qed.

Lemma run_frame_sim : forall r r' acc ext,
  rsim r r' -> loop_res_sim (run_frame r acc ext) (run_frame r' acc ext).
Proof.
  induction r as [r IH] using (induction_ltof1 _ pending). unfold ltof in IH. intros r' acc ext Hs.
  rewrite (run_frame_eq r), (run_frame_eq r'). pose proof (run_event_rsim r r' Hs) as H.
  destruct (run_event r) as [[e r1]| | |], (run_event r') as [[e' r1']| | |]; try contradiction; [|exact I].
  destruct H as (<- & Hs1 & _ & Hlt).
  destruct e; try (apply IH; [apply Hlt; discriminate|exact Hs1]).
  - destruct ext as [[[c a] t] i]. split; [reflexivity|exact Hs1].
  - exact I.
Qed.

Lemma run_file_sim : forall r r' g, rsim r r' -> run_file r' g = run_file r g.
Proof.
  induction r as [r IH] using (induction_ltof1 _ pending). unfold ltof in IH. intros r' g Hs.
  rewrite (run_file_eq r), (run_file_eq r'). pose proof (run_event_rsim r r' Hs) as H.
  destruct (run_event r) as [[e r1]| | |], (run_event r') as [[e' r1']| | |]; try contradiction;
    [|reflexivity].
  destruct H as (<- & Hs1 & _ & Hlt).
  destruct e; try reflexivity; specialize (Hlt ltac:(discriminate)); try (apply IH; assumption).
  - pose proof (run_pdu_sim r1 r1' [] Hs1) as Hp.
    destruct (run_pdu r1 []) as [[p r2]| | |] eqn:P, (run_pdu r1' []) as [[p' r2']| | |];
      try contradiction; [|reflexivity].
    destruct Hp as [<- Hs2]. apply run_pdu_len in P. apply IH; [lia|exact Hs2].
  - pose proof (run_frame_sim r1 r1' [] (None, None, None, None) Hs1) as Hp.
    destruct (run_frame r1 [] _) as [[p r2]| | |] eqn:P, (run_frame r1' [] _) as [[p' r2']| | |];
      try contradiction; [|reflexivity].
    destruct Hp as [<- Hs2]. apply run_frame_len in P. apply IH; [lia|exact Hs2].
Qed.

Lemma run_files_sim : forall files files', Forall2 xfile_pad0 files files' ->
  forall g, run_files files' g = run_files files g.
Proof.
  induction 1 as [|f f' t t' Hf Ht IH]; intros g; [reflexivity|]. cbn [run_files].
  destruct Hf as [|l l' Hp]; [reflexivity|].
  rewrite (run_file_sim (reader_from_events l) (reader_from_events l') g (conj eq_refl Hp)).
  destruct (run_file _ g); try reflexivity. apply IH.
Qed.

Theorem pad0_load files files' : Forall2 xfile_pad0 files files' -> load files' = load files.
Proof.
  intros H. rewrite !load_run, (run_files_sim files files' H). destruct H; reflexivity.
Qed.

Lemma pad0_refl : forall l, pad0 l l.
Proof.
  fix IH 1. intros [|e l]; [constructor|].
  destruct (reads_next e) eqn:Hr.
  - destruct l as [|x l]; [apply pad0_text_end; [constructor|exact Hr]|].
    apply pad0_text; [constructor|exact Hr|apply IH].
  - apply pad0_keep; [constructor|exact Hr|apply IH].
Qed.

Lemma pad0_ins_list j l l' : Forall (fun e => inert e = true) j -> pad0 l l' -> pad0 l (j ++ l').
Proof. induction 1 as [|e j He _ IH]; intros Hp; [exact Hp|]. cbn [app]. apply pad0_ins; auto. Qed.

Lemma inert_forest_inert l : inert_forest l -> Forall (fun e => inert e = true) l.
Proof.
  induction 1 as [|t l _ IH|l _ IH|n a l Hn _ IH|n a body l Hn _ IHb _ IH].
  - constructor.
  - constructor; [reflexivity|exact IH].
  - constructor; [reflexivity|exact IH].
  - constructor; [cbn [inert]; rewrite Hn; reflexivity|exact IH].
  - constructor; [cbn [inert]; rewrite Hn; reflexivity|].
    apply Forall_app. split; [exact IHb|].
    constructor; [cbn [inert]; rewrite Hn; reflexivity|exact IH].
Qed.

Lemma pad0_ins_forest j l l' : inert_forest j -> pad0 l l' -> pad0 l (j ++ l').
Proof. intros Hj. apply pad0_ins_list, inert_forest_inert, Hj. Qed.

Definition ares_eqb (a b : ares (option bstr)) : bool :=
  match a, b with
  | AVal x, AVal y => opt_bytes_eqb x y
  | AErr, AErr | APanic, APanic => true
  | _, _ => false
  end.

Definition same_attrsb (a a' : list xattr) : bool :=
  ares_eqb (attr_opt a B_ID) (attr_opt a' B_ID) &&
  ares_eqb (attr_opt a B_ID_REF) (attr_opt a' B_ID_REF) &&
  ares_eqb (attr_opt a B_BASE_DATA_TYPE) (attr_opt a' B_BASE_DATA_TYPE).

Definition ev_simb (e e' : xevent) : bool :=
  xevent_eqb e e' ||
  match e, e' with
  | XStart n a, XStart n' a' | XEmpty n a, XEmpty n' a' => bytes_eqb n n' && same_attrsb a a'
  | _, _ => false
  end.

(* keep the next event of [l] if the head of [l'] can stand for it, else take that head for an
   inserted one; [behind] says that the event before was a text-reading Start, so that this one
   must be there on both sides.  Written with [if] so that an eager evaluator does not explore
   both ways *)
Fixpoint pad0b (behind : bool) (l l' : list xevent) {struct l'} : bool :=
  match l' with
  | [] => match l with [] => true | _ :: _ => false end
  | e' :: t' =>
    if behind then
      match l with
      | x :: u => if xevent_eqb x e' then pad0b false u t' else false
      | [] => false
      end
    else if match l with
            | e :: t => if ev_simb e e' then pad0b (reads_next e) t t' else false
            | [] => false
            end
    then true
    else if inert e' then pad0b false l t' else false
  end.

Lemma ares_eqb_eq a b : ares_eqb a b = true -> a = b.
Proof.
  destruct a, b; cbn; try discriminate; try reflexivity. intros H. apply opt_bytes_eqb_eq in H. congruence.
Qed.

Lemma ev_simb_sound e e' : ev_simb e e' = true -> ev_sim e e'.
Proof.
  unfold ev_simb. intros H. apply orb_true_iff in H. destruct H as [H|H].
  - apply xevent_eqb_eq in H. subst e'. constructor.
  - destruct e, e'; try discriminate H; apply andb_true_iff in H; destruct H as [Hn Ha];
      apply bytes_eqb_eq in Hn; subst; unfold same_attrsb in Ha; rewrite !andb_true_iff in Ha;
      destruct Ha as [[A1 A2] A3]; constructor; repeat split; apply ares_eqb_eq; assumption.
Qed.

Lemma pad0b_spec : forall l' l behind, pad0b behind l l' = true ->
  if behind then match l, l' with
                 | [], [] => True
                 | x :: u, x' :: u' => x = x' /\ pad0 u u'
                 | _, _ => False
                 end
  else pad0 l l'.
Proof.
  induction l' as [|e' t' IH]; intros l behind H.
  - destruct l; [|destruct behind; discriminate H]. destruct behind; constructor.
  - cbn [pad0b] in H. destruct behind.
    + destruct l as [|x u]; [discriminate H|].
      destruct (xevent_eqb x e') eqn:Hx; [|discriminate H].
      split; [exact (xevent_eqb_eq _ _ Hx)|exact (IH u false H)].
    + match type of H with (if ?c then _ else _) = _ => destruct c eqn:Hk end.
      * destruct l as [|e t]; [discriminate Hk|].
        destruct (ev_simb e e') eqn:Hs; [|discriminate Hk]. apply ev_simb_sound in Hs.
        apply IH in Hk. destruct (reads_next e) eqn:Hr; [|apply pad0_keep; assumption].
        destruct t as [|x u], t' as [|x' u']; try contradiction; [apply pad0_text_end; assumption|].
        destruct Hk as [<- Hk]. apply pad0_text; assumption.
      * destruct (inert e') eqn:Hi; [|discriminate H]. apply pad0_ins; [exact Hi|exact (IH l false H)].
Qed.

Theorem pad0b_sound l l' : pad0b false l l' = true -> pad0 l l'.
Proof. apply pad0b_spec. Qed.

Lemma pad_rendering_render els : pad_rendering els (flat_map render_element els).
Proof.
  exists (flat_map render_element els), (flat_map render_element els).
  split; [apply pad_elements_render|]. split; apply pad0_refl.
Qed.

Lemma file_pad_render (l : layout) : Forall2 file_pad l (files_of l).
Proof.
  induction l as [|els t IH]; [constructor|].
  cbn [files_of map]. constructor; [|exact IH]. constructor. apply pad_rendering_render.
Qed.

Lemma file_pad_split : forall (l : layout) files', Forall2 file_pad l files' ->
  exists mids cores, Forall2 mid_file l mids /\ Forall2 xfile_pad0 cores mids /\
                     Forall2 xfile_pad0 cores files'.
Proof.
  induction 1 as [|els f t files' Hf _ (mids & cores & H1 & H2 & H3)];
    [exists [], []; repeat split; constructor|].
  destruct Hf as [els evs' (mid & core & Hp & Hp1 & Hp2)].
  exists (FileEvents mid :: mids), (FileEvents core :: cores).
  split; [|split]; constructor; try assumption.
  - exists mid. split; [reflexivity|exact Hp].
  - constructor. exact Hp1.
  - constructor. exact Hp2.
Qed.

Lemma load_padded_gathered (l : layout) files' :
  l <> [] -> elements_ok (concat l) = true -> Forall2 file_pad l files' ->
  load files' = match assemble (gathered_of (concat l) gathered_empty) with
                | Some m => Loaded m
                | None => Refused
                end.
Proof.
  intros Hne Hok H. destruct (file_pad_split l files' H) as (mids & cores & H1 & H2 & H3).
  rewrite (pad0_load cores files' H3), <- (pad0_load cores mids H2). apply load_mid; assumption.
Qed.

Theorem padding_irrelevant (l : layout) (files' : list xfile) :
  elements_ok (concat l) = true -> Forall2 file_pad l files' ->
  load files' = load (files_of l) /\ gather_fibex_data files' = gather_fibex_data (files_of l).
Proof.
  intros Hok H.
  assert (E : load files' = load (files_of l)).
  { destruct l as [|els t]; [inversion H; reflexivity|].
    rewrite (load_padded_gathered (els :: t) files' ltac:(discriminate) Hok H).
    symmetry. apply load_mid; [discriminate|apply mid_file_render|exact Hok]. }
  split; [exact E|]. unfold gather_fibex_data. rewrite E. reflexivity.
Qed.

Theorem load_padded_elements (l : layout) (files' : list xfile) :
  l <> [] -> elements_ok (concat l) = true -> Forall2 file_pad l files' ->
  match denote (concat l) with
  | Some d => exists m, gather_fibex_data files' = Some m /\ meta_equiv m d
  | None => load files' = Refused /\ gather_fibex_data files' = None
  end.
Proof.
  intros Hne Hok H. destruct (padding_irrelevant l files' Hok H) as [E1 E2].
  rewrite E1, E2. apply load_rendered; assumption.
Qed.

Lemma gather_padded (a : afibex) (l : layout) (files' : list xfile) :
  is_layout_of a l -> model_ok a = true -> Forall2 file_pad l files' ->
  gather_fibex_data files' = gather_fibex_data (files_of l).
Proof.
  intros Hl Hm H. apply padding_irrelevant; [|exact H].
  apply (layout_elements_ok a l Hl). unfold model_ok in Hm. apply andb_true_iff in Hm. apply Hm.
Qed.

Theorem load_padded (a : afibex) (l : layout) (files' : list xfile) :
  is_layout_of a l -> model_ok a = true -> Forall2 file_pad l files' ->
  exists m d, gather_fibex_data files' = Some m /\ denote (concat l) = Some d /\ meta_equiv m d.
Proof.
  intros Hl Hm H. rewrite (gather_padded a l files' Hl Hm H). apply (load_layout a); assumption.
Qed.

Theorem load_padded_canonical (a : afibex) (l : layout) (files' : list xfile) :
  is_layout_of a l -> model_ok a = true -> unique_ids (render_elements a) ->
  Forall2 file_pad l files' ->
  exists m d, gather_fibex_data files' = Some m /\ denote (render_elements a) = Some d /\
              meta_equiv m d.
Proof.
  intros Hl Hm Hu H. rewrite (gather_padded a l files' Hl Hm H).
  apply (load_layout_canonical a); assumption.
Qed.
