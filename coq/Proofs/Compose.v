(* Proofs/Compose.v — the two facts Properties/C06b.v and C09b.v share: the bytes of a message with
   storage header start with the pattern and have at least 16 bytes; FilterProofs.filter_spec at the bytes of
   a well-formed message.  (Resync.v is instantiated at such bytes in Properties/C06b.v.) *)
From Coq Require Import Lia ZifyBool ZifyN ZifyNat.
From DltV.Model Require Import Bytes Nom Dlt Parse.
From DltV.Spec Require Import WellFormed FilterSpec.
From DltV.Proofs Require Import BytesBasics FilterProofs Lengths Roundtrip.
Open Scope N_scope.

Lemma message_bytes_starts_with_pattern m rest :
  wf_message m = true -> has_storage m = true ->
  (exists r, message_bytes m ++ rest = pat_DLT1 ++ r) /\ 16 <= len (message_bytes m ++ rest).
Proof.
  intros Hwf Hs. apply wf_message_inv in Hwf as [Hst _]. unfold has_storage in Hs.
  rewrite Roundtrip.message_bytes_eq. destruct (m_storage m) as [s|]; [|discriminate Hs].
  cbn [wf_opt] in Hst. split.
  - unfold storage_header_bytes. rewrite <- !app_assoc. eexists. reflexivity.
  - rewrite !len_app, (len_storage_header_bytes s Hst). lia.
Qed.

(* C01 under a filter configuration: the message comes back, or its marker, as the drop rule says *)
Theorem filter_message m cfg rest :
  wf_message m = true ->
  dlt_message (message_bytes m ++ rest) (Some (process_filter cfg)) (has_storage m) =
  if spec_dropped cfg m then POk (FilteredOut (h_payload_length (m_header m))) rest else POk (Item m) rest.
Proof. intros Hwf. apply filter_spec, message_roundtrip, Hwf. Qed.

