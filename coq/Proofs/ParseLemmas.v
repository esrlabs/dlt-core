(* Proofs/ParseLemmas.v — what the parsers of Parse.v return and how much input they consume ([splits]);
   none of the parsers panics. *)
From Coq Require Import Lia ZifyBool ZifyN ZifyNat.
From DltV.Model Require Import Bytes Utf8 Nom Dlt Parse.
From DltV.Spec Require Import WellFormed.
From DltV.Proofs Require Import BytesBasics Fields ZString ParsedWfArgs Codes.
Open Scope N_scope.

(* ---------- sequencing ---------- *)
Lemma pmap_ok_inv {A B} (f : A -> B) (x : pres A) v rest :
  pmap f x = POk v rest -> exists a, x = POk a rest /\ v = f a.
Proof.
  unfold pmap, pbind. destruct x as [a r| | | |]; try discriminate.
  intros H. injection H as <- <-. now exists a.
Qed.
Lemma pbind_pmap {A B C} (g : A -> B) (x : pres A) (h : B -> list byte -> pres C) :
  pbind (pmap g x) h = pbind x (fun v r => h (g v) r).
Proof. now destruct x. Qed.
Lemma pbind_ok_inv {A B} (x : pres A) (f : A -> list byte -> pres B) v rest :
  pbind x f = POk v rest -> exists a r, x = POk a r /\ f a r = POk v rest.
Proof. unfold pbind. destruct x as [a r| | | |]; try discriminate. intros H. now exists a, r. Qed.

Definition splits (i rest : list byte) (n : N) : Prop := exists c, i = c ++ rest /\ len c = n.

Lemma splits_refl i : splits i i 0.
Proof. exists []. split; reflexivity. Qed.
Lemma splits_trans {i r1 r2 n1 n2} : splits i r1 n1 -> splits r1 r2 n2 -> splits i r2 (n1 + n2).
Proof.
  intros (c1 & -> & H1) (c2 & -> & H2). exists (c1 ++ c2). split; [now rewrite app_assoc|].
  rewrite len_app. lia.
Qed.
Lemma splits_eq {i rest n n'} : splits i rest n -> n = n' -> splits i rest n'.
Proof. now intros S <-. Qed.
Lemma splits_len {i rest n} : splits i rest n -> len i = n + len rest.
Proof. intros (c & -> & H). rewrite len_app. lia. Qed.
Lemma splits_le {i rest n} : splits i rest n -> n <= len i /\ len rest <= len i.
Proof. intros S. apply splits_len in S. lia. Qed.
Lemma splits_unique {i rest n n'} : splits i rest n -> splits i rest n' -> n = n'.
Proof. intros S S'. apply splits_len in S. apply splits_len in S'. lia. Qed.
Lemma splits_firstn {i rest n} : splits i rest n -> i = firstn (N.to_nat n) i ++ rest /\ rest = skipn (N.to_nat n) i.
Proof.
  intros (c & -> & H). rewrite <- H.
  rewrite firstn_len_app, skipn_len_app. split; reflexivity.
Qed.
Lemma splits_of_firstn i n : n <= len i -> splits i (skipn (N.to_nat n) i) n.
Proof.
  intros H. exists (firstn (N.to_nat n) i). split; [now rewrite firstn_skipn|].
  rewrite len_firstn. lia.
Qed.

(* ---------- primitives ---------- *)
Lemma field_splits {A} (p : list byte -> pres A) k f i v r : field p k f -> p i = POk v r -> splits i r k.
Proof. intros F E. destruct (field_inv _ _ _ _ _ _ F E) as (H & _ & ->). now apply splits_of_firstn. Qed.

Lemma take_enough n i : n <= len i -> take n i = POk (firstn (N.to_nat n) i) (skipn (N.to_nat n) i).
Proof. intros H. unfold take. destruct (N.ltb_spec (len i) n); [lia | reflexivity]. Qed.
Lemma take_short n i : len i < n -> take n i = PIncomplete (Some (n - len i)).
Proof.
  intros H. unfold take. destruct (N.ltb_spec (len i) n); [|lia]. now rewrite needed_new_pos by lia.
Qed.
Lemma field_take n : field (take n) n (fun c => c).
Proof.
  intros i. split; intros H.
  - now apply take_enough.
  - rewrite take_short by exact H. eexists. split; [reflexivity | lia].
Qed.
Lemma take_ok_inv {n i v rest} : take n i = POk v rest -> splits i rest n /\ v = firstn (N.to_nat n) i.
Proof.
  intros H. split; [exact (field_splits _ _ _ _ _ _ (field_take n) H)|].
  now destruct (field_inv _ _ _ _ _ _ (field_take n) H) as (_ & -> & _).
Qed.
Lemma take_app n c rest : len c = n -> take n (c ++ rest) = POk c rest.
Proof. exact (field_app _ _ _ c rest (field_take n)). Qed.

Lemma compare_tag_ok t i : compare_tag t i = Some true -> exists r, i = t ++ r.
Proof.
  revert i; induction t as [|a t IH]; intros i H.
  - now exists i.
  - destruct i as [|b i]; [discriminate|]. cbn [compare_tag] in H.
    destruct (byte_eqb a b) eqn:E; [|discriminate].
    apply byte_eqb_eq in E. subst b. destruct (IH i H) as (r & ->). now exists r.
Qed.
Lemma compare_tag_app t r : compare_tag t (t ++ r) = Some true.
Proof.
  induction t as [|a t IH]; [now destruct r|]. cbn [app compare_tag]. now rewrite byte_eqb_refl.
Qed.
Lemma tag_ok_inv t i v rest : tag t i = POk v rest -> i = t ++ rest /\ v = t.
Proof.
  unfold tag. destruct (compare_tag t i) as [[|]|] eqn:E; try discriminate.
  apply compare_tag_ok in E as (r & ->). intros H. injection H as <- <-.
  rewrite firstn_app_exact, skipn_app_exact by reflexivity. split; reflexivity.
Qed.
Lemma tag_app t r : tag t (t ++ r) = POk t r.
Proof.
  unfold tag. rewrite compare_tag_app.
  now rewrite firstn_app_exact, skipn_app_exact by reflexivity.
Qed.
Lemma tag_splits {t i v rest} : tag t i = POk v rest -> splits i rest (len t).
Proof. intros H. apply tag_ok_inv in H as (-> & _). now exists t. Qed.

Lemma uint_splits {e k i v rest} : uint e k i = POk v rest -> splits i rest (N.of_nat k).
Proof. apply field_splits with (f := get_uint e), field_uint. Qed.
Lemma sint_splits {e k i v rest} : sint e k i = POk v rest -> splits i rest (N.of_nat k).
Proof. apply field_splits with (f := get_sint e), field_sint. Qed.
Lemma u8_splits {i v rest} : u8 i = POk v rest -> splits i rest 1.
Proof. exact (@uint_splits BE 1 i v rest). Qed.
Lemma u8_value {i v rest} : u8 i = POk v rest -> v < 256.
Proof. intros H. now apply uint_value_bound in H. Qed.
Lemma uint_head e k i v rest : uint e k i = POk v rest -> i = put_uint e k v ++ rest.
Proof.
  intros H. destruct (field_inv _ _ _ _ _ _ (field_uint e k) H) as (L & -> & ->). rewrite Nat2N.id.
  assert (Hl : length (firstn k i) = k) by (apply firstn_length_le; unfold len in L; lia).
  rewrite <- Hl at 1. rewrite put_get_uint. symmetry. apply firstn_skipn.
Qed.
Lemma u8_head i v rest : u8 i = POk v rest -> i = n2b v :: rest.
Proof. intros H. apply uint_head in H. exact H. Qed.
Lemma zstring_splits {size i v rest} : zstring size i = POk v rest -> splits i rest size.
Proof. apply (field_splits _ _ _ _ _ _ (field_zstring size)). Qed.

Lemma opt_field_inv {A} (c : bool) (p : list byte -> pres A) i (v : option A) rest n :
  (forall i a r, p i = POk a r -> splits i r n) ->
  (if c then pmap Some (p i) else POk None i) = POk v rest ->
  splits i rest (if c then n else 0) /\ is_some v = c /\ (forall a, v = Some a -> p i = POk a rest).
Proof.
  intros Hp H. destruct c.
  - apply pmap_ok_inv in H as (a & Ha & ->). split; [eapply Hp, Ha|]. split; [reflexivity|].
    now intros ? [= <-].
  - injection H as <- <-. split; [apply splits_refl|]. split; [reflexivity | discriminate].
Qed.

Lemma opt_wf {A} (P : A -> bool) (o : option A) : (forall a, o = Some a -> P a = true) -> wf_opt P o = true.
Proof. intros H. destruct o; [now apply H | reflexivity]. Qed.

(* construct_arguments reads its fields with [slice] *)
Lemma len_slice data a b : len (slice data a b) <= b - a /\ len (slice data a b) <= len data - a.
Proof.
  unfold slice. rewrite len_firstn, len_skipn. lia.
Qed.
Lemma u16_field_bound e data a : get_uint e (slice data a (a + 2)) < 65536.
Proof.
  pose proof (get_uint_bound e (slice data a (a + 2))) as Hb.
  destruct (len_slice data a (a + 2)) as [Hl _].
  assert (Hp : 256 ^ len (slice data a (a + 2)) <= 256 ^ 2) by (apply N.pow_le_mono_r; lia).
  change (256 ^ 2) with 65536 in Hp. lia.
Qed.

(* ---------- the extended header ---------- *)
Lemma message_type_decode_wf b : b < 256 -> wf_mtype (message_type_decode b) = true.
Proof. apply (range_sweep (fun b => wf_mtype (message_type_decode b)) 256). vm_compute. reflexivity. Qed.

Lemma dlt_extended_header_inv i x rest : dlt_extended_header i = POk x rest ->
  splits i rest 10 /\ wf_ext x = true /\
  exists r1, zstring 4 (skipn 2 i) = POk (e_apid x) r1 /\ zstring 4 (skipn 6 i) = POk (e_ctid x) rest.
Proof.
  unfold dlt_extended_header, parse_ecu_id. intros H.
  apply pbind_ok_inv in H as (msin & i0 & E0 & H).
  apply pbind_ok_inv in H as (noar & i1 & E1 & H).
  apply pbind_ok_inv in H as (apid & i2 & E2 & H).
  apply pbind_ok_inv in H as (ctid & i3 & E3 & H).
  injection H as <- <-. cbn [e_apid e_ctid]. split; [|split].
  - exact (splits_trans (u8_splits E0) (splits_trans (u8_splits E1)
      (splits_trans (zstring_splits E2) (zstring_splits E3)))).
  - unfold wf_ext. cbn [e_noar e_mtype e_apid e_ctid].
    rewrite (zstring_wf_id E2), (zstring_wf_id E3), (message_type_decode_wf _ (u8_value E0)).
    pose proof (u8_value E1) as Hn. apply N.ltb_lt in Hn. now rewrite Hn.
  - destruct (field_inv _ _ _ _ _ _ (field_u8 BE) E0) as (_ & _ & ->).
    destruct (field_inv _ _ _ _ _ _ (field_u8 BE) E1) as (_ & _ & ->).
    pose proof (zstring_ok_inv _ _ _ _ E2) as (_ & _ & R2). rewrite skipn_skipn_add in E2, R2.
    rewrite R2, skipn_skipn_add in E3. exists i2. now split.
Qed.

(* [c] is what dlt_message takes from bit UEH *)
Definition opt_ext_facts (c : bool) (i : list byte) (ext : option ext_header) (rest : list byte) : Prop :=
  splits i rest (if c then 10 else 0) /\ is_some ext = c /\ wf_opt wf_ext ext = true /\
  forall x, ext = Some x ->
    exists r1, zstring 4 (skipn 2 i) = POk (e_apid x) r1 /\ zstring 4 (skipn 6 i) = POk (e_ctid x) rest.

Lemma opt_extended_header_inv (c : bool) i ext rest :
  (if c then pmap Some (dlt_extended_header i) else POk None i) = POk ext rest -> opt_ext_facts c i ext rest.
Proof.
  intros H. apply (opt_field_inv _ _ _ _ _ 10 (fun i x r E => proj1 (dlt_extended_header_inv i x r E))) in H as (S & O & V).
  split; [exact S|]. split; [exact O|].
  assert (X : forall x, ext = Some x -> wf_ext x = true /\
            exists r1, zstring 4 (skipn 2 i) = POk (e_apid x) r1 /\ zstring 4 (skipn 6 i) = POk (e_ctid x) rest).
  { intros x Ex. exact (proj2 (dlt_extended_header_inv _ _ _ (V x Ex))). }
  split; [apply opt_wf; intros x Ex; apply X, Ex | intros x Ex; apply X, Ex].
Qed.

(* ---------- the storage header ---------- *)
(* what dlt_storage_header runs on its input from the pattern on *)
Definition sh_core (rest : list byte) : pres storage_header :=
  let* (_, i1) := tag [x44; x4c; x54] rest in
  let* (_, i2) := tag [x01] i1 in
  let* (secs, i3) := uint LE 4 i2 in
  let* (micros, i4) := uint LE 4 i3 in
  let* (ecu, after) := zstring 4 i4 in
  POk (mkSH (mkTS secs micros) ecu) after.
Definition skip_core (input : list byte) : pres unit :=
  let* (_, i1) := tag [x44; x4c; x54] input in
  let* (_, i2) := tag [x01] i1 in
  let* (_, i) := take 12 i2 in
  POk tt i.

Lemma dlt_storage_header_eq input :
  dlt_storage_header input =
  if len input <? 16 then PIncomplete None
  else match forward_to_next_storage_header input with
       | Some (consumed, rest) => pmap (fun s => Some (s, consumed)) (sh_core rest)
       | None => POk None []
       end.
Proof.
  unfold dlt_storage_header, sh_core. destruct (len input <? 16); [reflexivity|].
  destruct (forward_to_next_storage_header input) as [[consumed rest]|]; [|reflexivity].
  destruct (tag [x44; x4c; x54] rest) as [t1 i1| | | |]; try reflexivity. cbn [pbind].
  destruct (tag [x01] i1) as [t2 i2| | | |]; try reflexivity. cbn [pbind].
  destruct (uint LE 4 i2) as [secs i3| | | |]; try reflexivity. cbn [pbind].
  destruct (uint LE 4 i3) as [mic i4| | | |]; try reflexivity. cbn [pbind].
  destruct (zstring 4 i4) as [ecu after| | | |]; reflexivity.
Qed.

Lemma skip_storage_header_eq input :
  skip_storage_header input =
  pbind (skip_core input) (fun _ i =>
    if len input <? len i then PPanic
    else if len input - len i =? 16 then POk 16 i else PError).
Proof.
  unfold skip_storage_header, skip_core.
  destruct (tag [x44; x4c; x54] input) as [v1 i1| | | |]; cbn [pbind]; try reflexivity.
  destruct (tag [x01] i1) as [v2 i2| | | |]; cbn [pbind]; try reflexivity.
  destruct (take 12 i2) as [v3 i3| | | |]; cbn [pbind]; reflexivity.
Qed.

(* the 16 bytes: pattern (4), seconds (4), microseconds (4), ECU id (4) *)
Lemma sh_core_inv x s rest : sh_core x = POk s rest ->
  splits x rest 16 /\ zstring 4 (skipn 12 x) = POk (sh_ecu s) rest /\ wf_storage s = true.
Proof.
  unfold sh_core. intros H.
  apply pbind_ok_inv in H as (t1 & i1 & E1 & H). apply pbind_ok_inv in H as (t2 & i2 & E2 & H).
  apply pbind_ok_inv in H as (secs & i3 & E3 & H). apply pbind_ok_inv in H as (mic & i4 & E4 & H).
  apply pbind_ok_inv in H as (ecu & i5 & E5 & H). injection H as <- <-. cbn [sh_ecu].
  pose proof (splits_trans (tag_splits E1) (splits_trans (tag_splits E2)
    (splits_trans (uint_splits E3) (uint_splits E4)))) as S12.
  split; [exact (splits_trans S12 (zstring_splits E5))|]. split.
  - pose proof (proj2 (splits_firstn S12)) as R. change (i4 = skipn 12 x) in R. now rewrite <- R.
  - unfold wf_storage. cbn [sh_ts sh_ecu ts_secs ts_micros].
    now rewrite (zstring_wf_id E5), (uint_ltb _ _ _ _ _ E3 : (secs <? 2 ^ 32) = true),
      (uint_ltb _ _ _ _ _ E4 : (mic <? 2 ^ 32) = true).
Qed.

Lemma skip_core_inv x rest : skip_core x = POk tt rest -> splits x rest 16.
Proof.
  unfold skip_core. intros H.
  apply pbind_ok_inv in H as (t1 & i1 & E1 & H). apply pbind_ok_inv in H as (t2 & i2 & E2 & H).
  apply pbind_ok_inv in H as (t3 & i3 & E3 & H). injection H as <-.
  exact (splits_trans (tag_splits E1)
    (splits_trans (tag_splits E2) (proj1 (take_ok_inv E3)))).
Qed.

(* the skipper measures what its three steps consumed: always 16 bytes *)
Lemma skip_storage_header_inv i n rest : skip_storage_header i = POk n rest -> n = 16 /\ splits i rest 16.
Proof.
  rewrite skip_storage_header_eq. intros H. apply pbind_ok_inv in H as ([] & r & E & H).
  apply skip_core_inv in E. destruct (len i <? len r); [discriminate|].
  destruct (len i - len r =? 16); [|discriminate]. injection H as <- <-. now split.
Qed.

(* ---------- no parser panics ---------- *)
(* a parser built from the primitives by sequencing, mapping and branching alone is shown not to panic by
   [auto with nopanic] after unfolding it *)
Lemma take_no_panic n i : take n i <> PPanic.
Proof. exact (field_no_panic _ _ _ i (field_take n)). Qed.
Lemma tag_no_panic t i : tag t i <> PPanic.
Proof. unfold tag. now destruct (compare_tag t i) as [[|]|]. Qed.
Lemma uint_no_panic e k i : uint e k i <> PPanic.
Proof. exact (field_no_panic _ _ _ i (field_uint e k)). Qed.
Lemma pmap_no_panic {A B} (f : A -> B) (x : pres A) : x <> PPanic -> pmap f x <> PPanic.
Proof. unfold pmap, pbind. now destruct x. Qed.
Lemma sint_no_panic e k i : sint e k i <> PPanic.
Proof. exact (field_no_panic _ _ _ i (field_sint e k)). Qed.
Lemma pbind_no_panic {A B} (x : pres A) (f : A -> list byte -> pres B) :
  x <> PPanic -> (forall a r, f a r <> PPanic) -> pbind x f <> PPanic.
Proof. unfold pbind. destruct x; auto; congruence. Qed.
Lemma if_no_panic {A} (c : bool) (x y : pres A) : x <> PPanic -> y <> PPanic -> (if c then x else y) <> PPanic.
Proof. now destruct c. Qed.

Create HintDb nopanic.
#[export] Hint Resolve take_no_panic tag_no_panic uint_no_panic sint_no_panic zstring_no_panic
  pmap_no_panic pbind_no_panic if_no_panic : nopanic.
#[export] Hint Extern 1 (_ <> PPanic) => discriminate : nopanic.

Lemma dlt_standard_header_no_panic i : dlt_standard_header i <> PPanic.
Proof. unfold dlt_standard_header, parse_ecu_id, u8. auto 20 with nopanic. Qed.
Lemma dlt_extended_header_no_panic i : dlt_extended_header i <> PPanic.
Proof. unfold dlt_extended_header, parse_ecu_id, u8. auto 20 with nopanic. Qed.
Lemma dlt_uint_no_panic e w i : dlt_uint e w i <> PPanic.
Proof. destruct w; unfold dlt_uint, u8; auto with nopanic. Qed.
Lemma dlt_sint_no_panic e w i : dlt_sint e w i <> PPanic.
Proof. destruct w; unfold dlt_sint; auto with nopanic. Qed.
Lemma dlt_fint_no_panic e w i : dlt_fint e w i <> PPanic.
Proof. destruct w; unfold dlt_fint; auto with nopanic. Qed.
Lemma dlt_fixed_point_no_panic e w i : dlt_fixed_point e w i <> PPanic.
Proof. destruct w; unfold dlt_fixed_point; auto 6 with nopanic. Qed.
Lemma dlt_type_info_no_panic e i : dlt_type_info e i <> PPanic.
Proof.
  unfold dlt_type_info. apply pbind_no_panic; [apply uint_no_panic|]. intros info r.
  now destruct (ti_decode info).
Qed.
Lemma u8_complete_no_panic i : u8_complete i <> PPanic.
Proof. now destruct i. Qed.
#[export] Hint Resolve dlt_uint_no_panic dlt_sint_no_panic dlt_fint_no_panic dlt_fixed_point_no_panic
  dlt_type_info_no_panic u8_complete_no_panic dlt_standard_header_no_panic dlt_extended_header_no_panic : nopanic.

Lemma dlt_argument_no_panic e i : dlt_argument e i <> PPanic.
Proof.
  unfold dlt_argument. apply pbind_no_panic; [apply dlt_type_info_no_panic|]. intros t r.
  unfold dlt_variable_name_and_unit, dlt_variable_name, u8. destruct (ti_kind_of t); auto 12 with nopanic.
Qed.

Lemma count_no_panic {A} (p : list byte -> pres A) n i :
  (forall i, p i <> PPanic) -> count p n i <> PPanic.
Proof.
  intros Hp. revert i; induction n as [|n IH]; intros i; cbn [count]; auto with nopanic.
Qed.

Definition opt_is (f : message_type -> bool) (mt : option message_type) : bool :=
  match mt with Some t => f t | None => false end.
Lemma dlt_payload_nonverbose e i pl noar mt :
  dlt_payload e i false pl noar mt =
  if opt_is is_control mt then
    if pl <? 1 then PFailure
    else let* (id, i1) := u8_complete i in
         let* (bs, rest) := take (pl - 1) i1 in POk (PControl (control_from_value id) bs) rest
  else
    if pl <? 4 then PFailure
    else let* (id, i1) := uint e 4 i in
         let* (bs, rest) := take (pl - 4) i1 in POk (PNonVerbose id bs) rest.
Proof. now destruct mt as [[]|]. Qed.

Lemma dlt_payload_no_panic e i verbose pl noar mt : dlt_payload e i verbose pl noar mt <> PPanic.
Proof.
  destruct verbose; [|rewrite dlt_payload_nonverbose; auto 8 with nopanic].
  unfold dlt_payload. apply pbind_no_panic; [apply take_no_panic|]. intros pbytes r.
  pose proof (count_no_panic (dlt_argument e) (N.to_nat noar) pbytes (dlt_argument_no_panic e)) as C.
  destruct (count (dlt_argument e) (N.to_nat noar) pbytes); try discriminate; [|congruence].
  destruct mt as [[]|]; discriminate.
Qed.

Lemma dlt_storage_header_no_panic i : dlt_storage_header i <> PPanic.
Proof.
  rewrite dlt_storage_header_eq. unfold sh_core. destruct (len i <? 16); [discriminate|].
  destruct (forward_to_next_storage_header i) as [[c r]|]; auto 12 with nopanic.
Qed.

Lemma dlt_message_after_no_panic shs after f : dlt_message_after shs after f <> PPanic.
Proof.
  unfold dlt_message_after. apply pbind_no_panic; [apply dlt_standard_header_no_panic|]. intros h r.
  apply pbind_no_panic; [auto with nopanic|]. intros ext r2.
  pose proof dlt_payload_no_panic.
  destruct (validated_payload_length h (len after)); auto 6 with nopanic.
Qed.

Lemma dlt_message_no_panic bs f sh : dlt_message bs f sh <> PPanic.
Proof.
  unfold dlt_message. apply pbind_no_panic.
  - destruct sh; [apply dlt_storage_header_no_panic | discriminate].
  - intros. apply dlt_message_after_no_panic.
Qed.

Lemma skip_storage_header_no_panic i : skip_storage_header i <> PPanic.
Proof.
  rewrite skip_storage_header_eq.
  assert (N : skip_core i <> PPanic) by (unfold skip_core; auto 8 with nopanic).
  destruct (skip_core i) as [[] r| | | |] eqn:E; cbn [pbind]; try discriminate; [|congruence].
  apply skip_core_inv, splits_len in E. destruct (N.ltb_spec (len i) (len r)); [lia|].
  destruct (len i - len r =? 16); discriminate.
Qed.

Lemma dlt_consume_msg_no_panic i : dlt_consume_msg i <> PPanic.
Proof.
  unfold dlt_consume_msg. destruct i as [|b i]; [discriminate|].
  pose proof skip_storage_header_no_panic. auto 8 with nopanic.
Qed.
