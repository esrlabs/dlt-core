(* Proofs/FibexDenote.v — the second half of read_fibexes (PDU table, frame maps) computes, up to map
   lookups, the declarative meaning [denote] of the elements that the first half collected. *)
From Coq Require Import Lia ZifyBool ZifyN ZifyNat.
From Coq.Strings Require Import Ascii String.
From DltV.Model Require Import Bytes RustInt Dlt Fibex.
From DltV.Spec Require Import FibexSpec.
From DltV.Proofs Require Import BytesBasics FibexLookup.
Open Scope N_scope.

Definition prd_of (p : apdu) : pdu_read_data := (ap_desc p, ordered_refs (ap_signals p)).
Definition frd_of (f : aframe) : frame_read_data :=
  mkFRD (af_short_name f) (af_context_id f) (af_application_id f) (af_message_type f)
        (af_message_info f) (ordered_refs (af_pdus f)).

Definition gather_step (g : gathered) (e : element) : gathered :=
  match e with
  | ElPdu p => mkGathered (g_frames g) (g_pdus g ++ [(ap_id p, prd_of p)]) (g_signals g) (g_codings g)
  | ElFrame f => mkGathered (g_frames g ++ [(af_id f, frd_of f)]) (g_pdus g) (g_signals g) (g_codings g)
  | ElSignal i c => mkGathered (g_frames g) (g_pdus g) ((i, c) :: g_signals g) (g_codings g)
  | ElCoding i b => mkGathered (g_frames g) (g_pdus g) (g_signals g) ((i, b) :: g_codings g)
  end.
Definition gathered_of (els : list element) (g : gathered) : gathered := fold_left gather_step els g.

Lemma gathered_of_app els1 els2 g : gathered_of (els1 ++ els2) g = gathered_of els2 (gathered_of els1 g).
Proof. apply fold_left_app. Qed.

Lemma gathered_of_fields : forall els g,
  g_frames (gathered_of els g) = g_frames g ++ map (fun f => (af_id f, frd_of f)) (el_frames els) /\
  g_pdus (gathered_of els g) = g_pdus g ++ map (fun p => (ap_id p, prd_of p)) (el_pdus els) /\
  g_signals (gathered_of els g) = rev (el_signals els) ++ g_signals g /\
  g_codings (gathered_of els g) = rev (el_codings els) ++ g_codings g.
Proof.
  induction els as [|e t IH]; intros g.
  - cbn. rewrite !app_nil_r. auto.
  - unfold gathered_of in *. cbn [fold_left].
    destruct (IH (gather_step g e)) as (H1 & H2 & H3 & H4).
    rewrite H1, H2, H3, H4.
    destruct e as [p|f|i c|i b]; cbn [gather_step g_frames g_pdus g_signals g_codings];
      unfold el_frames, el_pdus, el_signals, el_codings; cbn [filter_map map rev];
      rewrite <- ?app_assoc; cbn [app]; auto.
Qed.

Lemma if_orb {A} (a b : bool) (x y : A) :
  (if a || b then x else y) = if a then x else if b then x else y.
Proof. destruct a; reflexivity. Qed.

(* a table lookup with a default, as the chain of tests it stands for *)
Fixpoint first_match {V} (k : bstr) (m : list (bstr * V)) (d : V) : V :=
  match m with
  | [] => d
  | (k', v) :: t => if bytes_eqb k k' then v else first_match k t d
  end.

Lemma assoc_get_first_match {V} (k : bstr) (m : list (bstr * V)) (d : V) :
  match assoc_get k m with Some v => v | None => d end = first_match k m d.
Proof.
  induction m as [|[k' v] t IH]; cbn [assoc_get first_match]; [reflexivity|].
  destruct (bytes_eqb k k'); [reflexivity|exact IH].
Qed.

(* the chain of tests is the table lookup once each `a || b` is two tests *)
Lemma type_info_for_base_type_table (b : bstr) :
  type_info_for_base_type b = assoc_get b base_data_types.
Proof. unfold type_info_for_base_type. rewrite !if_orb. reflexivity. Qed.

Lemma type_info_for_signal_ref_table (r : bstr) (signals codings : list (bstr * bstr)) :
  type_info_for_signal_ref r signals codings =
  match assoc_get r standard_signals with
  | Some t => t
  | None =>
    match assoc_get r signals with
    | Some c => match assoc_get c codings with
                | Some b => assoc_get b base_data_types
                | None => None
                end
    | None => None
    end
  end.
Proof.
  unfold type_info_for_signal_ref. rewrite if_orb, assoc_get_first_match.
  destruct (assoc_get r signals) as [c|]; [|reflexivity].
  destruct (assoc_get c codings) as [b|]; [|reflexivity].
  rewrite type_info_for_base_type_table. reflexivity.
Qed.

Lemma assoc_get_app {V} (k : bstr) (m1 m2 : list (bstr * V)) :
  assoc_get k (m1 ++ m2) = match assoc_get k m1 with Some x => Some x | None => assoc_get k m2 end.
Proof.
  induction m1 as [|[k' v'] t IH]; cbn [app assoc_get]; [reflexivity|].
  destruct (bytes_eqb k k'); [reflexivity|exact IH].
Qed.

Lemma key_get_app {V} (k : frame_key) (m1 m2 : list (frame_key * V)) :
  key_get k (m1 ++ m2) = match key_get k m1 with Some x => Some x | None => key_get k m2 end.
Proof.
  induction m1 as [|[k' v'] t IH]; cbn [app key_get]; [reflexivity|].
  destruct (frame_key_eqb k k'); [reflexivity|exact IH].
Qed.

Lemma insert_vacant_get {V} (k k' : bstr) (v : V) m :
  assoc_get k (insert_vacant k' v m) =
  match assoc_get k m with Some x => Some x | None => if bytes_eqb k k' then Some v else None end.
Proof.
  unfold insert_vacant. destruct (assoc_get k' m) as [x|] eqn:E.
  - destruct (assoc_get k m) as [y|] eqn:Ek; [reflexivity|].
    destruct (bytes_eqb k k') eqn:Ekk; [|reflexivity].
    apply bytes_eqb_eq in Ekk. subst k'. congruence.
  - rewrite assoc_get_app. cbn [assoc_get]. reflexivity.
Qed.

Lemma key_insert_vacant_get {V} (k k' : frame_key) (v : V) m :
  key_get k (key_insert_vacant k' v m) =
  match key_get k m with Some x => Some x | None => if frame_key_eqb k k' then Some v else None end.
Proof.
  unfold key_insert_vacant. destruct (key_get k' m) as [x|] eqn:E.
  - destruct (key_get k m) as [y|] eqn:Ek; [reflexivity|].
    destruct (frame_key_eqb k k') eqn:Ekk; [|reflexivity].
    apply frame_key_eqb_eq in Ekk. subst k'. congruence.
  - rewrite key_get_app. cbn [key_get]. reflexivity.
Qed.

Lemma fold_insert_vacant_get {P V} (F : P -> V) : forall (l : list (bstr * P)) m k,
  assoc_get k (fold_left (fun m '(id, p) => insert_vacant id (F p) m) l m) =
  match assoc_get k m with
  | Some x => Some x
  | None => assoc_get k (map (fun ip => (fst ip, F (snd ip))) l)
  end.
Proof.
  induction l as [|[id p] t IH]; intros m k; cbn [fold_left map assoc_get fst snd].
  - destruct (assoc_get k m); reflexivity.
  - rewrite IH, insert_vacant_get.
    destruct (assoc_get k m); [reflexivity|].
    destruct (bytes_eqb k id); reflexivity.
Qed.

Lemma pdu_metadata_of_denote els g p :
  g_signals g = rev (el_signals els) -> g_codings g = rev (el_codings els) ->
  pdu_metadata_of g (prd_of p) = denote_pdu els p.
Proof.
  intros Hs Hc. unfold pdu_metadata_of, denote_pdu, prd_of. cbn [fst snd]. f_equal.
  generalize (ordered_refs (ap_signals p)) as refs.
  induction refs as [|r t IH]; cbn [filter_map]; [reflexivity|].
  rewrite IH. rewrite type_info_for_signal_ref_table, Hs, Hc.
  reflexivity.
Qed.

Lemma build_pdu_by_id_get els g k :
  g_pdus g = map (fun p => (ap_id p, prd_of p)) (el_pdus els) ->
  g_signals g = rev (el_signals els) -> g_codings g = rev (el_codings els) ->
  assoc_get k (build_pdu_by_id g) = assoc_get k (pdu_table els).
Proof.
  intros Hp Hs Hc. unfold build_pdu_by_id. rewrite fold_insert_vacant_get. cbn [assoc_get].
  rewrite Hp, map_map. unfold pdu_table. cbn [fst snd].
  f_equal. apply map_ext. intros p. rewrite (pdu_metadata_of_denote els g p Hs Hc). reflexivity.
Qed.

Lemma resolve_pdu_refs_all_some pbi refs :
  resolve_pdu_refs pbi refs = all_some (map (fun r => assoc_get r pbi) refs).
Proof.
  induction refs as [|r t IH]; cbn [resolve_pdu_refs map all_some]; [reflexivity|].
  destruct (assoc_get r pbi); [|reflexivity]. rewrite IH. reflexivity.
Qed.

Definition entries (fms : list (aframe * frame_metadata)) : list (bstr * frame_metadata) :=
  map (fun fm => (af_id (fst fm), snd fm)) fms.

Lemma build_frames_denote els : forall (fs : list aframe) pbi m,
  (forall k, assoc_get k pbi = assoc_get k (pdu_table els)) ->
  match build_frames pbi (map (fun f => (af_id f, frd_of f)) fs) m,
        all_some (map (fun f => option_map (fun fm => (f, fm)) (denote_frame els f)) fs) with
  | Some m', Some fms =>
    (forall k, assoc_get k (frame_map m') =
               match assoc_get k (frame_map m) with Some x => Some x | None => assoc_get k (entries fms) end) /\
    (forall k, key_get k (frame_map_with_key m') =
               match key_get k (frame_map_with_key m) with
               | Some x => Some x
               | None => key_get k (filter_map keyed_entry fms)
               end)
  | None, None => True
  | _, _ => False
  end.
Proof.
  induction fs as [|f t IH]; intros pbi m Hext; cbn [map build_frames all_some].
  - split; intros k; cbn [entries map filter_map assoc_get key_get].
    + destruct (assoc_get k (frame_map m)); reflexivity.
    + destruct (key_get k (frame_map_with_key m)); reflexivity.
  - cbn [frd_of frd_pdu_refs frd_short_name frd_context_id frd_application_id frd_message_type frd_message_info].
    rewrite resolve_pdu_refs_all_some.
    set (later := all_some (map (fun f0 => option_map (fun fm => (f0, fm)) (denote_frame els f0)) t)) in *.
    unfold denote_frame.
    rewrite (map_ext (fun r => assoc_get r pbi) (fun r => assoc_get r (pdu_table els)) Hext).
    destruct (all_some (map (fun r => assoc_get r (pdu_table els)) (ordered_refs (af_pdus f)))) as [ps|];
      [|exact I].
    cbn [option_map].
    match goal with |- context [build_frames pbi _ ?m1] => specialize (IH pbi m1 Hext); set (M1 := m1) in * end.
    destruct (build_frames pbi (map (fun f0 => (af_id f0, frd_of f0)) t) M1) as [m'|];
      destruct later as [fms|];
      try exact IH.
    destruct IH as [IH1 IH2]. subst M1. cbn [frame_map frame_map_with_key] in *.
    split; intros k.
    + rewrite IH1, insert_vacant_get. cbn [entries map assoc_get fst snd].
      destruct (assoc_get k (frame_map m)); [reflexivity|].
      destruct (bytes_eqb k (af_id f)); reflexivity.
    + rewrite IH2. cbn [filter_map]. unfold keyed_entry at 2. cbn [fst snd].
      destruct (af_context_id f) as [c|]; [destruct (af_application_id f) as [a|]|].
      * rewrite key_insert_vacant_get. cbn [key_get].
        destruct (key_get k (frame_map_with_key m)); [reflexivity|].
        destruct (frame_key_eqb k (c, a, af_id f)); reflexivity.
      * reflexivity.
      * reflexivity.
Qed.

Theorem assemble_denote (els : list element) :
  match assemble (gathered_of els gathered_empty), denote els with
  | Some m, Some d => meta_equiv m d
  | None, None => True
  | _, _ => False
  end.
Proof.
  destruct (gathered_of_fields els gathered_empty) as (Hf & Hp & Hs & Hc).
  cbn [gathered_empty g_frames g_pdus g_signals g_codings app] in *. rewrite app_nil_r in Hs, Hc.
  unfold assemble, denote. rewrite Hf.
  pose proof (build_frames_denote els (el_frames els) (build_pdu_by_id (gathered_of els gathered_empty))
                (mkMeta [] []) (fun k => build_pdu_by_id_get els _ k Hp Hs Hc)) as H.
  destruct (build_frames _ _ (mkMeta [] [])) as [m|];
    destruct (all_some (map (fun f => option_map (fun m => (f, m)) (denote_frame els f)) (el_frames els))) as [fms|];
    try exact H.
Qed.
