(* Proofs/ReaderProofs.v — a message reader over any read_exact that hands out the next bytes of its source
   delivers the scratch-aware run of Spec/ReaderMmlSpec.v, for every fragmentation / interruption schedule
   ([run_start]; the blocking read_exact satisfies the contract here, the async one in StreamProofs.v);
   the cuts of Spec/ReaderSpec.v: truncation, layout, the run as a function of the pieces. *)
From Coq Require Import Lia ZifyBool ZifyN ZifyNat.
From DltV.Model Require Import Bytes Nom Parse Reader ReaderMml.
From DltV.Spec Require Import ReaderSpec ReaderMmlSpec.
From DltV.Proofs Require Import BytesBasics.
Open Scope N_scope.

(* ================= lists indexed by N ================= *)
Section ListN.
  Context {A : Type}.
  Implicit Types l a b : list A.

  Lemma takeN_dropN_nat : forall l n,
    takeN n l = firstn (N.to_nat n) l /\ dropN n l = skipn (N.to_nat n) l.
  Proof.
    induction l as [|x l IH]; intros n; cbn [takeN dropN].
    - rewrite firstn_nil, skipn_nil. split; reflexivity.
    - destruct (n =? 0) eqn:E.
      + replace n with 0 by lia. split; reflexivity.
      + replace (N.to_nat n) with (S (N.to_nat (N.pred n))) by lia.
        cbn [firstn skipn]. destruct (IH (N.pred n)) as [-> ->]. split; reflexivity.
  Qed.
  Lemma takeN_firstn : forall n l, takeN n l = firstn (N.to_nat n) l.
  Proof. intros. apply takeN_dropN_nat. Qed.
  Lemma dropN_skipn : forall n l, dropN n l = skipn (N.to_nat n) l.
  Proof. intros. apply takeN_dropN_nat. Qed.

  Lemma len_takeN : forall n l, len (takeN n l) = N.min n (len l).
  Proof. intros; rewrite takeN_firstn, len_firstn; lia. Qed.
  Lemma len_dropN : forall n l, len (dropN n l) = len l - n.
  Proof. intros; rewrite dropN_skipn; apply len_skipn_N. Qed.
  Lemma takeN_0 : forall l, takeN 0 l = [].
  Proof. intros; now rewrite takeN_firstn. Qed.
  Lemma dropN_0 : forall l, dropN 0 l = l.
  Proof. intros; now rewrite dropN_skipn. Qed.
  Lemma takeN_dropN : forall n l, takeN n l ++ dropN n l = l.
  Proof. intros; rewrite takeN_firstn, dropN_skipn; apply firstn_skipn. Qed.
  Lemma takeN_all : forall n l, len l <= n -> takeN n l = l.
  Proof. intros n l H; rewrite takeN_firstn; apply firstn_all2; rewrite <- len_to_nat; lia. Qed.
  Lemma dropN_all : forall n l, len l <= n -> dropN n l = [].
  Proof. intros n l H; rewrite dropN_skipn; apply skipn_all2; rewrite <- len_to_nat; lia. Qed.

  Lemma dropN_dropN : forall x y l, dropN x (dropN y l) = dropN (y + x) l.
  Proof.
    intros; rewrite !dropN_skipn, skipn_skipn_add. f_equal; lia.
  Qed.
  Lemma takeN_takeN : forall x y l, takeN x (takeN y l) = takeN (N.min x y) l.
  Proof.
    intros; rewrite !takeN_firstn, firstn_firstn. f_equal; lia.
  Qed.
  Lemma dropN_takeN : forall n k l, dropN n (takeN k l) = takeN (k - n) (dropN n l).
  Proof. intros. rewrite !dropN_skipn, !takeN_firstn, skipn_firstn_comm. f_equal. lia. Qed.
  Lemma takeN_add : forall x y l, takeN (x + y) l = takeN x l ++ takeN y (dropN x l).
  Proof.
    intros. rewrite <- (takeN_dropN x (takeN (x + y) l)), takeN_takeN, dropN_takeN. do 2 f_equal; lia.
  Qed.

  Lemma takeN_app_le : forall n a b, n <= len a -> takeN n (a ++ b) = takeN n a.
  Proof.
    intros n a b H; rewrite !takeN_firstn, firstn_app.
    replace (N.to_nat n - length a)%nat with 0%nat by (rewrite <- len_to_nat; lia).
    cbn [firstn]. apply app_nil_r.
  Qed.
  Lemma takeN_app_ge : forall n a b, len a <= n -> takeN n (a ++ b) = a ++ takeN (n - len a) b.
  Proof.
    intros n a b H; rewrite !takeN_firstn, firstn_app.
    rewrite firstn_all2 by (rewrite <- len_to_nat; lia). f_equal. f_equal. rewrite <- len_to_nat; lia.
  Qed.
  Lemma dropN_app_le : forall n a b, n <= len a -> dropN n (a ++ b) = dropN n a ++ b.
  Proof.
    intros n a b H; rewrite !dropN_skipn, skipn_app.
    replace (N.to_nat n - length a)%nat with 0%nat by (rewrite <- len_to_nat; lia). reflexivity.
  Qed.
  Lemma dropN_app_ge : forall n a b, len a <= n -> dropN n (a ++ b) = dropN (n - len a) b.
  Proof.
    intros n a b H; rewrite !dropN_skipn, skipn_app.
    rewrite skipn_all2 by (rewrite <- len_to_nat; lia). cbn [app]. f_equal. rewrite <- len_to_nat; lia.
  Qed.

  Lemma fits_spec : forall n l, fits n l = (n <=? len l).
  Proof. intros; unfold fits; rewrite len_takeN; lia. Qed.
  Lemma is_nil_len : forall l, is_nil l = (len l =? 0).
  Proof. intros [|x l]; [reflexivity|rewrite len_cons; cbn [is_nil]; lia]. Qed.
End ListN.

(* ================= the source and std's BufReader ================= *)

Lemma src_read_spec : forall want s, 0 < want ->
  match src_read want s with
  | (RInterrupted, s') =>
    src_rest s' = src_rest s /\ (length (src_sched s') < length (src_sched s))%nat
  | (ROk bs, s') =>
    src_rest s = bs ++ src_rest s' /\ len bs <= want /\ (len bs = 0 -> src_rest s = [])
    /\ (length (src_sched s') <= length (src_sched s))%nat
  end.
Proof.
  intros want [sg rest] Hw. unfold src_read; cbn [src_sched src_rest].
  assert (K : forall n, 0 < n <= want ->
    rest = takeN n rest ++ dropN n rest /\ len (takeN n rest) <= want /\ (len (takeN n rest) = 0 -> rest = [])).
  { intros n Hn. rewrite takeN_dropN, <- len_0_iff, len_takeN. split; [reflexivity|lia]. }
  destruct sg as [|k sg]; [|destruct (k =? 0) eqn:Ek]; cbn [src_sched src_rest length].
  - split; [|split; [|split]]; try apply K; lia.
  - split; [reflexivity|lia].
  - split; [|split; [|split]]; try apply K; lia.
Qed.

Lemma br_read_spec : forall cap want br, 0 < want ->
  match br_read cap want br with
  | (RInterrupted, br') =>
    br_view br' = br_view br /\ (length (br_sched br') < length (br_sched br))%nat
  | (ROk bs, br') =>
    br_view br = bs ++ br_view br' /\ len bs <= want /\ (len bs = 0 -> br_view br = [])
    /\ (length (br_sched br') <= length (br_sched br))%nat
  end.
Proof.
  intros cap want [buf src] Hw. unfold br_read, br_fill_buf, br_view, br_sched; cbn [br_buf br_src].
  destruct buf as [|b0 buf]; cbn [is_nil andb].
  - cbn [app]. destruct (cap <=? want) eqn:Ecap.
    + (* bypass *)
      pose proof (src_read_spec want src Hw) as H.
      destruct (src_read want src) as [[bs|] s']; exact H.
    + pose proof (src_read_spec cap src ltac:(lia)) as H.
      destruct (src_read cap src) as [[bs|] s']; cbn [br_buf br_src app]; [|exact H].
      destruct H as (H1 & H2 & H3 & H4).
      rewrite app_assoc, takeN_dropN, len_takeN. repeat split; [exact H1|lia| |exact H4].
      intros H0. apply H3. lia.
  - cbn [br_buf br_src]. set (B := b0 :: buf).
    assert (HB : 0 < len B) by (unfold B; rewrite len_cons; lia).
    rewrite app_assoc, takeN_dropN, len_takeN. repeat split; lia.
Qed.

(* ---------- the contract of read_exact ---------- *)
Definition rx_post {St} (view : St -> list byte) (want : N) (got v : list byte) (res : xres * list byte * St) : Prop :=
  exists st', res = ((if want <=? len v then XOk else XEof), got ++ takeN want v, st') /\ view st' = dropN want v.

Definition rx_ok {St} (view : St -> list byte) (rx : N -> St -> xres * list byte * St) : Prop :=
  forall want st, rx_post view want [] (view st) (rx want st).

Section RxPost.
  Context {St : Type} (view : St -> list byte).

  Lemma rx_post_0 : forall got st, rx_post view 0 got (view st) (XOk, got, st).
  Proof.
    intros got st. exists st. rewrite takeN_0, dropN_0, app_nil_r.
    replace (0 <=? len (view st)) with true by lia. split; reflexivity.
  Qed.

  Lemma rx_post_eof : forall want got st, 0 < want -> view st = [] -> rx_post view want got [] (XEof, got, st).
  Proof.
    intros want got st Hw Hv. exists st. rewrite takeN_all, dropN_all, app_nil_r by (rewrite len_nil; lia).
    rewrite len_nil. replace (want <=? 0) with false by lia. split; [reflexivity|exact Hv].
  Qed.

  Lemma rx_post_step : forall want got B v res, len B <= want ->
    rx_post view (want - len B) (got ++ B) v res -> rx_post view want got (B ++ v) res.
  Proof.
    intros want got B v res Hw (st' & -> & V). exists st'.
    rewrite takeN_app_ge, dropN_app_ge, len_app, app_assoc by exact Hw.
    replace (want <=? len B + len v) with (want - len B <=? len v) by lia. split; [reflexivity|exact V].
  Qed.
End RxPost.

Lemma default_read_exact_spec : forall fuel cap want got br,
  (length (br_sched br) + N.to_nat (N.min want (len (br_view br))) < fuel)%nat ->
  rx_post br_view want got (br_view br) (default_read_exact fuel cap want got br).
Proof.
  induction fuel as [|fuel IH]; intros cap want got br Hf; [lia|].
  cbn [default_read_exact]. destruct (want =? 0) eqn:E0.
  - assert (want = 0) by lia. subst want. apply rx_post_0.
  - pose proof (br_read_spec cap want br ltac:(lia)) as H.
    destruct (br_read cap want br) as [[bs|] br1].
    + destruct H as (H1 & H2 & H3 & H4). rewrite H1 in *.
      destruct bs as [|b bs].
      * rewrite (H3 eq_refl). apply rx_post_eof; [lia|exact (H3 eq_refl)].
      * apply rx_post_step, IH; [exact H2|]. rewrite len_app, len_cons in *. lia.
    + destruct H as (H1 & H2). rewrite <- H1. apply IH. rewrite H1. lia.
Qed.

Lemma br_read_exact_spec : forall cap, rx_ok br_view (br_read_exact cap).
Proof.
  intros cap want br. unfold br_read_exact. rewrite fits_spec.
  destruct (want <=? len (br_buf br)) eqn:Efast.
  - exists (mkBR (dropN want (br_buf br)) (br_src br)). unfold br_view; cbn [br_buf br_src app].
    rewrite len_app. replace (want <=? len (br_buf br) + len (src_rest (br_src br))) with true by lia.
    rewrite takeN_app_le, dropN_app_le by lia. split; reflexivity.
  - apply default_read_exact_spec.
    unfold read_exact_fuel. rewrite <- !len_to_nat, !len_takeN. unfold br_view. rewrite len_app. lia.
Qed.

(* ================= next_message_slice / read_message over an abstract read_exact ================= *)

Lemma parse_length_4 : forall a b c d, parse_length [a; b; c; d] = POk (256 * b2n c + b2n d) [].
Proof.
  intros. unfold parse_length, take, uint, pbind.
  change (len [a; b; c; d]) with 4. change (4 <? 2) with false. cbv iota.
  change (N.to_nat 2) with 2%nat. cbn [firstn skipn].
  change (len [c; d]) with 2. change (2 <? N.of_nat 2) with false. cbv iota.
  cbn [firstn skipn get_uint rev app le_get]. f_equal. lia.
Qed.

Lemma declared_len_lt : forall sh v, declared_len sh v < 65536.
Proof.
  intros sh v. unfold declared_len. destruct (skipn _ v) as [|a [|b t]]; try lia.
  pose proof (b2n_lt a). pose proof (b2n_lt b). lia.
Qed.

Lemma declared_len_at : forall sh (p : list byte) a b c d t, len p = storage_len sh ->
  declared_len sh (p ++ a :: b :: c :: d :: t) = 256 * b2n c + b2n d.
Proof.
  intros sh p a b c d t Hp. unfold declared_len.
  rewrite <- dropN_skipn, dropN_app_ge by lia. rewrite Hp.
  replace (storage_len sh + 2 - storage_len sh) with 2 by lia. reflexivity.
Qed.

Lemma hdr_split : forall sh (v : list byte), hdr_len sh <= len v ->
  exists p a b c d t, v = p ++ a :: b :: c :: d :: t /\ len p = storage_len sh.
Proof.
  intros sh v Hv. unfold hdr_len in Hv.
  rewrite <- (takeN_dropN (storage_len sh) v).
  assert (Hq : 4 <= len (dropN (storage_len sh) v)) by (rewrite len_dropN; lia).
  destruct (dropN (storage_len sh) v) as [|a [|b [|c [|d t]]]];
    try (rewrite ?len_cons, ?len_nil in Hq; lia).
  exists (takeN (storage_len sh) v), a, b, c, d, t. split; [reflexivity|]. rewrite len_takeN. lia.
Qed.

Lemma parse_length_declared : forall sh v, hdr_len sh <= len v ->
  parse_length (dropN (storage_len sh) (takeN (hdr_len sh) v)) = POk (declared_len sh v) [].
Proof.
  intros sh v Hv. destruct (hdr_split sh v Hv) as (p & a & b & c & d & t & -> & Hp).
  rewrite declared_len_at by exact Hp. unfold hdr_len.
  rewrite takeN_app_ge, dropN_app_ge by lia. rewrite Hp.
  replace (storage_len sh - storage_len sh) with 0 by lia.
  replace (storage_len sh + 4 - storage_len sh) with 4 by lia.
  rewrite dropN_0. rewrite takeN_firstn.
  change (N.to_nat 4) with 4%nat. cbn [firstn]. apply parse_length_4.
Qed.

Lemma len_blit : forall off bs buf, off + len bs <= len buf -> len (blit off bs buf) = len buf.
Proof. intros off bs buf H. unfold blit. rewrite !len_app, len_takeN, len_dropN. lia. Qed.

Lemma blit_0 : forall bs buf, blit 0 bs buf = bs ++ dropN (len bs) buf.
Proof. intros. unfold blit. rewrite takeN_0. cbn [app]. do 2 f_equal. Qed.

Lemma sub_blit_0 : forall a n h buf, len h = n -> a <= n -> sub a n (blit 0 h buf) = dropN a h.
Proof.
  intros a n h buf <- Ha. unfold sub. rewrite blit_0, dropN_app_le by lia.
  rewrite takeN_app_le by (rewrite len_dropN; lia). apply takeN_all. rewrite len_dropN; lia.
Qed.

(* stale bytes of the scratch buffer never show: the slice is exactly header ++ body *)
Lemma takeN_blit_blit : forall n t h b buf, len h = n -> t = n + len b -> t <= len buf ->
  takeN t (blit n b (blit 0 h buf)) = h ++ b.
Proof.
  intros n t h b buf <- -> H. rewrite blit_0. unfold blit at 1.
  rewrite (takeN_app_le (len h) h) by lia. rewrite (takeN_all (len h) h) by lia.
  rewrite app_assoc. rewrite takeN_app_le by (rewrite len_app; lia).
  apply takeN_all. rewrite len_app; lia.
Qed.

Lemma spec_outcome_eq : forall r, spec_outcome r = pres_outcome r.
Proof. intros [pm rest|n| | |]; reflexivity. Qed.

(* ---------- one cut ---------- *)
Lemma spec_cut_spec : forall sh s,
  match spec_cut sh s with
  | CEnd => len s < storage_len sh + 4
  | CShort => storage_len sh + 4 <= len s /\ declared_len sh s < 4
  | CTrunc => storage_len sh + 4 <= len s /\ 4 <= declared_len sh s
              /\ len s < storage_len sh + declared_len sh s
  | CPiece n => n = storage_len sh + declared_len sh s /\ 4 <= declared_len sh s /\ n <= len s
  end.
Proof.
  intros sh s. unfold spec_cut, hdr_len.
  destruct (len s <? storage_len sh + 4) eqn:E1; [lia|].
  destruct (declared_len sh s <? 4) eqn:E2; [lia|].
  destruct (len s <? storage_len sh + declared_len sh s) eqn:E3; lia.
Qed.

Lemma spec_cut_nil : forall sh, spec_cut sh [] = CEnd.
Proof. intros [|]; reflexivity. Qed.

Lemma spec_cut_piece_intro : forall sh r rest L,
  len r = storage_len sh + L -> declared_len sh (r ++ rest) = L -> 4 <= L ->
  spec_cut sh (r ++ rest) = CPiece (len r).
Proof.
  intros sh r rest L Hr HL H4. unfold spec_cut, hdr_len. rewrite HL, len_app, Hr.
  replace (storage_len sh + L + len rest <? storage_len sh + 4) with false by lia.
  replace (L <? 4) with false by lia.
  replace (storage_len sh + L + len rest <? storage_len sh + L) with false by lia. reflexivity.
Qed.

(* how far into the scratch buffer one call of next_message_slice indexes (the head of
   ReaderMmlSpec.spec_needs_fuel: ReaderMml.spec_needs_fuel_S) *)
Definition call_need (sh : bool) (v : list byte) : N :=
  match spec_cut sh v with
  | CTrunc => storage_len sh + declared_len sh v
  | CPiece n => n
  | _ => hdr_len sh
  end.

Lemma call_need_bounds : forall sh v, hdr_len sh <= call_need sh v <= message_max_len.
Proof.
  intros sh v. unfold call_need, hdr_len. pose proof (spec_cut_spec sh v) as Hc.
  pose proof (declared_len_lt sh v). assert (message_max_len = 65551) by reflexivity.
  assert (storage_len sh <= 16) by (destruct sh; cbn [storage_len]; lia).
  destruct (spec_cut sh v); lia.
Qed.

Definition piece_then (o : outcome) (rest : list outcome) : list outcome :=
  match o with
  | OPanic => [OPanic]
  | _ => o :: rest
  end.

Lemma spec_run_mml_fuel_S : forall fuel m s f sh,
  spec_run_mml_fuel (S fuel) m s f sh
  = if m <? call_need sh s then [OPanic]
    else match spec_cut sh s with
         | CEnd => []
         | CShort => OErr EHickup :: spec_run_mml_fuel fuel m (skipn (N.to_nat (hdr_len sh)) s) f sh
         | CTrunc => [OErr EUnrecoverable]
         | CPiece n => piece_then (spec_outcome (dlt_message (firstn (N.to_nat n) s) f sh))
                                  (spec_run_mml_fuel fuel m (skipn (N.to_nat n) s) f sh)
         end.
Proof.
  intros. cbn [spec_run_mml_fuel].
  pose proof (call_need_bounds sh s) as [H _]. unfold call_need in *.
  destruct (spec_cut sh s) as [| | |n]; destruct (m <? hdr_len sh) eqn:Em; try reflexivity.
  - replace (m <? storage_len sh + declared_len sh s) with true by lia. reflexivity.
  - replace (m <? n) with true by lia. reflexivity.
  - destruct (m <? n); [reflexivity|]. destruct (spec_outcome _); reflexivity.
Qed.

Lemma spec_run_mml_fuel_nil : forall fuel m f sh, hdr_len sh <= m -> spec_run_mml_fuel fuel m [] f sh = [].
Proof.
  intros [|fuel] m f sh Hm; [reflexivity|]. cbn [spec_run_mml_fuel].
  replace (m <? hdr_len sh) with false by lia. rewrite spec_cut_nil. reflexivity.
Qed.

Definition slice_of (sh : bool) (m : N) (v : list byte) : nms_res :=
  if m <? call_need sh v then NPanic
  else match spec_cut sh v with
       | CEnd => NEmpty
       | CShort => NErr EHickup
       | CTrunc => NErr EUnrecoverable
       | CPiece n => NSlice (takeN n v)
       end.

Section GenericProofs.
  Variable St : Type.
  Variable read_exact : N -> St -> xres * list byte * St.
  Variable view : St -> list byte.        (* internal buffer ++ unread source *)
  Hypothesis rx_spec : rx_ok view read_exact.

    (* the repaired next_message_slice; of the scratch only its length matters *)
  Lemma next_message_slice_spec : forall sh (r : reader St),
    let m := len (rd_scratch r) in
    let v := view (rd_src r) in
    exists r', next_message_slice_with read_exact true sh r = (slice_of sh m v, r')
      /\ len (rd_scratch r') = m
      /\ (call_need sh v <= m -> view (rd_src r') = dropN (call_need sh v) v).
  Proof.
    intros sh [st buf]. cbn [rd_scratch rd_src]. cbv zeta.
    unfold next_message_slice_with, range_ok. cbn [rd_scratch rd_src].
    change (if sh then 16 else 0) with (storage_len sh). change (storage_len sh + 4) with (hdr_len sh).
    assert (Hhdr : hdr_len sh = storage_len sh + 4) by reflexivity.
    rewrite fits_spec. replace (0 <=? hdr_len sh) with true by lia. cbn [andb].
    destruct (hdr_len sh <=? len buf) eqn:Em; cbn [negb].
    2:{ (* the scratch cannot even hold the header *)
      exists (mkReader st buf). unfold slice_of.
      pose proof (call_need_bounds sh (view st)).
      replace (len buf <? call_need sh (view st)) with true by lia. split; [reflexivity|]. split; [reflexivity|lia]. }
    destruct (rx_spec (hdr_len sh) st) as (st1 & E1 & V1). cbn [app] in E1. rewrite E1.
    set (v := view st) in *. set (h := takeN (hdr_len sh) v).
    assert (Hb1 : len (blit 0 h buf) = len buf) by (apply len_blit; unfold h; rewrite len_takeN; lia).
    unfold slice_of, call_need, spec_cut. rewrite !N.ltb_antisym.
    destruct (hdr_len sh <=? len v) eqn:Ehdr; cbn [negb].
    2:{ (* end of stream *)
      rewrite Em. eexists. split; [reflexivity|]. split; [exact Hb1|intros _; exact V1]. }
    rewrite (sub_blit_0 (storage_len sh) (hdr_len sh) h buf) by (unfold h; rewrite ?len_takeN; lia).
    unfold h at 1. rewrite parse_length_declared by lia.
    set (L := declared_len sh v). set (t := storage_len sh + L).
    rewrite N.ltb_antisym.
    destruct (4 <=? L) eqn:EL4; cbn [negb].
    2:{ (* declared length below the header length: the second slice is never taken *)
      rewrite Em. eexists. split; [reflexivity|]. split; [exact Hb1|intros _; exact V1]. }
    rewrite fits_spec, Hb1. replace (hdr_len sh <=? t) with true by lia. cbn [andb].
    destruct (t <=? len buf) eqn:Efit; cbn [negb].
    2:{ (* total_len exceeds the scratch: panic, whether or not the body is there *)
      exists (mkReader st1 (blit 0 h buf)).
      destruct (t <=? len v); cbn [negb]; rewrite Efit; (split; [reflexivity|]; split; [exact Hb1|lia]). }
    destruct (rx_spec (t - hdr_len sh) st1) as (st2 & E2 & V2). cbn [app] in E2.
    rewrite V1, len_dropN in E2. rewrite V1, dropN_dropN in V2. rewrite E2.
    replace (hdr_len sh + (t - hdr_len sh)) with t in V2 by lia.
    replace (t - hdr_len sh <=? len v - hdr_len sh) with (t <=? len v) by lia.
    set (b := takeN (t - hdr_len sh) (dropN (hdr_len sh) v)).
    assert (Hb2 : len (blit (hdr_len sh) b (blit 0 h buf)) = len buf).
    { rewrite len_blit; [exact Hb1|]. unfold b. rewrite Hb1, len_takeN, len_dropN. lia. }
    exists (mkReader st2 (blit (hdr_len sh) b (blit 0 h buf))).
    destruct (t <=? len v) eqn:Et; cbn [negb]; rewrite Efit; cbn [negb];
      (split; [|split; [exact Hb2|intros _; exact V2]]); [|reflexivity].
    do 2 f_equal. unfold h, b.
    rewrite (takeN_blit_blit (hdr_len sh) t) by (rewrite ?len_takeN, ?len_dropN; lia).
    rewrite <- takeN_add. f_equal. lia.
  Qed.

  Lemma run_mml_spec : forall fuel f sh (r : reader St),
    (length (view (rd_src r)) < fuel)%nat ->
    run_with read_exact true fuel f sh r
    = (spec_run_mml_fuel fuel (len (rd_scratch r)) (view (rd_src r)) f sh, true).
  Proof.
    induction fuel as [|fuel IH]; intros f sh r Hfuel; [lia|].
    cbn [run_with]. unfold read_message_with. rewrite spec_run_mml_fuel_S.
    destruct (next_message_slice_spec sh r) as (r' & E & Hm & V). cbv zeta in E, Hm, V. rewrite E. unfold slice_of.
    set (v := view (rd_src r)) in *. set (m := len (rd_scratch r)) in *.
    destruct (m <? call_need sh v) eqn:Efit; [reflexivity|].
    (* the call has consumed its need, at least 4 bytes unless the stream is at its end *)
    rewrite <- len_to_nat in Hfuel. pose proof (spec_cut_spec sh v) as Hc. unfold call_need in *.
    assert (Hrec : forall n, view (rd_src r') = dropN n v -> 0 < n -> 0 < len v ->
              run_with read_exact true fuel f sh r'
              = (spec_run_mml_fuel fuel m (skipn (N.to_nat n) v) f sh, true)).
    { intros n Vn Hn Hv. rewrite IH, Vn, Hm, dropN_skipn; [reflexivity|].
      rewrite Vn, <- len_to_nat, len_dropN. lia. }
    destruct (spec_cut sh v) as [| | |n]; [reflexivity|..]; specialize (V ltac:(lia)).
    - rewrite (Hrec _ V) by (unfold hdr_len; lia). reflexivity.
    - rewrite (Hrec _ V), <- dropN_skipn, dropN_all, spec_run_mml_fuel_nil by (unfold hdr_len in *; lia).
      reflexivity.
    - rewrite is_nil_len, len_takeN. replace (N.min n (len v) =? 0) with false by lia.
      rewrite (Hrec _ V), takeN_firstn by lia. change spec_outcome with pres_outcome.
      destruct (pres_outcome _); reflexivity.
  Qed.
End GenericProofs.

(* ================= the readers over a BufReader ================= *)
Lemma run_start : forall rx, rx_ok br_view rx -> forall mml sg s f sh,
  run_with rx true (length s + 1) f sh (reader_mml mml sg s) = (spec_run_mml mml s f sh, true).
Proof.
  intros rx Hrx mml sg s f sh. rewrite (run_mml_spec bufreader rx br_view Hrx).
  - cbn [reader_mml rd_scratch rd_src br_view br_buf br_src src_rest app].
    unfold scratch_of, len. rewrite repeat_length, N2Nat.id. reflexivity.
  - cbn [reader_mml rd_src br_view br_buf br_src src_rest app]. lia.
Qed.

Lemma len_new_scratch : len new_scratch = message_max_len.
Proof. unfold new_scratch, len. rewrite repeat_length. apply N2Nat.id. Qed.

Lemma spec_run_fuel_no_panic : forall f sh, (forall bs, dlt_message bs f sh <> PPanic) ->
  forall fuel s, ~ In OPanic (spec_run_fuel fuel s f sh).
Proof.
  intros f sh Hd. induction fuel as [|fuel IH]; intros s; cbn [spec_run_fuel]; [intros []|].
  destruct (spec_cut sh s) as [| | |n].
  - intros [].
  - intros [H|H]; [discriminate|]. exact (IH _ H).
  - intros [H|[]]. discriminate.
  - pose proof (Hd (firstn (N.to_nat n) s)) as Hp.
    destruct (dlt_message (firstn (N.to_nat n) s) f sh) as [pm rest|nd| | |]; cbn [spec_outcome];
      try (intros [H|H]; [discriminate|exact (IH _ H)]).
    congruence.
Qed.

(* ================= the cuts ================= *)

(* what a cut that continues consumes; a LEN field below 4 counts as a piece of header length
   (ReaderSpec.spec_cuts, piece_outcome) *)
Definition cut_next (sh : bool) (s : list byte) : option N :=
  match spec_cut sh s with
  | CShort => Some (hdr_len sh)
  | CPiece n => Some n
  | _ => None
  end.

Lemma cut_next_spec : forall sh s n, cut_next sh s = Some n -> storage_len sh + 4 <= n <= len s.
Proof.
  intros sh s n. unfold cut_next, hdr_len. pose proof (spec_cut_spec sh s) as Hc.
  destruct (spec_cut sh s); intros E; inversion E; subst; lia.
Qed.

Lemma cut_next_shorter : forall sh s n, cut_next sh s = Some n ->
  (length (skipn (N.to_nat n) s) < length s)%nat.
Proof. intros sh s n H. apply cut_next_spec in H. rewrite skipn_length, <- len_to_nat. lia. Qed.

Lemma cut_ind : forall sh (P : list byte -> Prop),
  (forall s, (forall n, cut_next sh s = Some n -> P (dropN n s)) -> P s) -> forall s, P s.
Proof.
  intros sh P H s. induction s as [s IH] using (induction_ltof1 _ (@length byte)).
  apply H. intros n Hn. apply IH. rewrite dropN_skipn. exact (cut_next_shorter sh s n Hn).
Qed.

(* fuel above the length of the stream is irrelevant, for every function that recurses along the cuts *)
Lemma fuel_irrel : forall {X R} sh (F : nat -> X -> list byte -> R),
  (forall n1 n2 s,
     (forall n x, cut_next sh s = Some n -> F n1 x (skipn (N.to_nat n) s) = F n2 x (skipn (N.to_nat n) s)) ->
     forall x, F (S n1) x s = F (S n2) x s) ->
  forall n1 n2 s x, (length s < n1)%nat -> (length s < n2)%nat -> F n1 x s = F n2 x s.
Proof.
  intros X R sh F Hstep. induction n1 as [|n1 IH]; intros [|n2] s x H1 H2; try lia.
  apply Hstep. intros n y Hn. apply cut_next_shorter in Hn. apply IH; lia.
Qed.

Lemma spec_run_fuel_irrel : forall f sh fuel1 fuel2 s,
  (length s < fuel1)%nat -> (length s < fuel2)%nat ->
  spec_run_fuel fuel1 s f sh = spec_run_fuel fuel2 s f sh.
Proof.
  intros f sh fuel1 fuel2 s H1 H2.
  refine (fuel_irrel sh (fun n (_ : unit) s => spec_run_fuel n s f sh) _ _ _ _ tt H1 H2).
  intros n1 n2 t H _. cbn [spec_run_fuel]. unfold cut_next in H.
  destruct (spec_cut sh t) as [| | |n]; try reflexivity; rewrite (H _ tt eq_refl); reflexivity.
Qed.

Lemma spec_cuts_fuel_S : forall fuel off s sh,
  spec_cuts_fuel (S fuel) off s sh
  = match cut_next sh s with
    | Some n => (off, n) :: spec_cuts_fuel fuel (off + n) (skipn (N.to_nat n) s) sh
    | None => []
    end.
Proof. intros. cbn [spec_cuts_fuel]. unfold cut_next. destruct (spec_cut sh s); reflexivity. Qed.

Lemma spec_cuts_fuel_irrel : forall sh fuel1 fuel2 off s,
  (length s < fuel1)%nat -> (length s < fuel2)%nat ->
  spec_cuts_fuel fuel1 off s sh = spec_cuts_fuel fuel2 off s sh.
Proof.
  intros sh fuel1 fuel2 off s H1 H2.
  refine (fuel_irrel sh (fun n off s => spec_cuts_fuel n off s sh) _ _ _ _ off H1 H2).
  intros n1 n2 t H x. rewrite !spec_cuts_fuel_S.
  destruct (cut_next sh t) as [n|]; [rewrite (H _ _ eq_refl)|]; reflexivity.
Qed.

(* ---------- one step of the run and of the cuts ---------- *)
Lemma spec_run_step : forall s f sh,
  spec_run s f sh
  = match spec_cut sh s with
    | CEnd => []
    | CShort => OErr EHickup :: spec_run (skipn (N.to_nat (hdr_len sh)) s) f sh
    | CTrunc => [OErr EUnrecoverable]
    | CPiece n => piece_then (spec_outcome (dlt_message (firstn (N.to_nat n) s) f sh))
                             (spec_run (skipn (N.to_nat n) s) f sh)
    end.
Proof.
  intros s f sh. unfold spec_run at 1. rewrite Nat.add_1_r. cbn [spec_run_fuel].
  assert (K : forall n, cut_next sh s = Some n ->
            spec_run_fuel (length s) (skipn (N.to_nat n) s) f sh = spec_run (skipn (N.to_nat n) s) f sh).
  { intros n Hn. apply cut_next_shorter in Hn. apply spec_run_fuel_irrel; lia. }
  unfold cut_next in K. destruct (spec_cut sh s) as [| | |n]; try reflexivity; rewrite (K _ eq_refl).
  - reflexivity.
  - destruct (spec_outcome _); reflexivity.
Qed.

Definition cuts_from (off : N) (s : list byte) (sh : bool) : list (N * N) :=
  spec_cuts_fuel (length s + 1) off s sh.

Lemma cuts_from_step : forall off s sh,
  cuts_from off s sh
  = match cut_next sh s with
    | Some n => (off, n) :: cuts_from (off + n) (dropN n s) sh
    | None => []
    end.
Proof.
  intros off s sh. unfold cuts_from at 1. rewrite Nat.add_1_r, spec_cuts_fuel_S.
  destruct (cut_next sh s) as [n|] eqn:En; [|reflexivity].
  apply cut_next_shorter in En. rewrite dropN_skipn. f_equal. apply spec_cuts_fuel_irrel; lia.
Qed.

Lemma declared_len_prefix : forall sh s k, hdr_len sh <= k ->
  declared_len sh (takeN k s) = declared_len sh s.
Proof.
  intros sh s k Hk. unfold declared_len, hdr_len in *. set (a := storage_len sh + 2) in *.
  rewrite takeN_firstn.
  replace (N.to_nat k) with (N.to_nat a + S (S (N.to_nat (k - a - 2))))%nat by lia.
  rewrite <- firstn_skipn_comm.
  destruct (skipn (N.to_nat a) s) as [|x [|y t]]; reflexivity.
Qed.

Definition is_tail (tail : list outcome) : Prop := tail = [] \/ tail = [OErr EUnrecoverable].

(* the outcome of a piece depends on its bytes only *)
Lemma spec_run_next : forall s f sh,
  match cut_next sh s with
  | Some n => spec_run s f sh = piece_then (piece_outcome f sh (takeN n s)) (spec_run (dropN n s) f sh)
  | None => is_tail (spec_run s f sh)
  end.
Proof.
  intros s f sh. rewrite (spec_run_step s). unfold cut_next, piece_outcome.
  pose proof (spec_cut_spec sh s) as Hc.
  destruct (spec_cut sh s) as [| | |n]; [left; reflexivity| | right; reflexivity|];
    rewrite declared_len_prefix by (unfold hdr_len; lia); rewrite <- ?takeN_firstn, <- dropN_skipn.
  - replace (declared_len sh s <? 4) with true by lia. reflexivity.
  - replace (declared_len sh s <? 4) with false by lia. reflexivity.
Qed.

Lemma cut_next_prefix : forall sh s k,
  cut_next sh (takeN k s)
  = match cut_next sh s with Some n => if n <=? k then Some n else None | None => None end.
Proof.
  intros sh s k. unfold cut_next, hdr_len.
  pose proof (spec_cut_spec sh s) as H1. pose proof (spec_cut_spec sh (takeN k s)) as H2.
  pose proof (declared_len_prefix sh s k) as Hd. unfold hdr_len in Hd. rewrite len_takeN in H2.
  destruct (spec_cut sh s) as [| | |n], (spec_cut sh (takeN k s)) as [| | |n'];
    try destruct (_ <=? k) eqn:Ek; try reflexivity; try (f_equal; lia); exfalso; lia.
Qed.

Lemma cuts_from_beyond : forall sh k s off, k < off -> filter (cut_within k) (cuts_from off s sh) = [].
Proof.
  intros sh k s. induction s as [s IH] using (cut_ind sh). intros off Hk. rewrite cuts_from_step.
  destruct (cut_next sh s) as [n|]; [|reflexivity].
  cbn [filter]. unfold cut_within at 1. cbn [fst snd]. replace (off + n <=? k) with false by lia.
  apply (IH n eq_refl). lia.
Qed.

Lemma truncation_from : forall f sh s k off,
  let done := filter (cut_within (off + k)) (cuts_from off s sh) in
  cuts_from off (takeN k s) sh = done
  /\ exists tail, is_tail tail
     /\ spec_run (takeN k s) f sh = firstn (length done) (spec_run s f sh) ++ tail.
Proof.
  intros f sh s. induction s as [s IH] using (cut_ind sh). intros k off. cbv zeta.
  rewrite (cuts_from_step off s), (cuts_from_step off (takeN k s)), cut_next_prefix.
  pose proof (spec_run_next s f sh) as Hs. pose proof (spec_run_next (takeN k s) f sh) as Ht.
  rewrite cut_next_prefix in Ht.
  destruct (cut_next sh s) as [n|] eqn:En.
  2: { split; [reflexivity|]. exists (spec_run (takeN k s) f sh). split; [exact Ht|reflexivity]. }
  pose proof (cut_next_spec sh s n En) as Hn.
  assert (Hw : cut_within (off + k) (off, n) = (n <=? k)) by (unfold cut_within; cbn [fst snd]; lia).
  cbn [filter]. rewrite !Hw.
  destruct (n <=? k) eqn:Ek.
  - (* the piece lies within the prefix *)
    rewrite takeN_takeN in Ht. replace (N.min n k) with n in Ht by lia. rewrite dropN_takeN in *.
    destruct (IH n eq_refl (k - n) (off + n)) as (I1 & tail & It & I2).
    replace (off + n + (k - n)) with (off + k) in * by lia.
    split; [f_equal; exact I1|].
    rewrite Hs, Ht. cbn [length].
    destruct (piece_outcome f sh (takeN n s)); cbn [piece_then firstn app].
    + exists tail. split; [exact It|f_equal; exact I2].
    + exists tail. split; [exact It|f_equal; exact I2].
    + exists []. split; [left; reflexivity|]. rewrite firstn_nil. reflexivity.
  - (* cut off inside the piece: no later piece ends within k either *)
    rewrite cuts_from_beyond by lia.
    split; [reflexivity|]. exists (spec_run (takeN k s) f sh). split; [exact Ht|reflexivity].
Qed.

(* ----- the run is a function of the pieces ----- *)
Lemma spec_run_by_cuts_from : forall f sh s0 s off, dropN off s0 = s ->
  exists tail, is_tail tail
    /\ spec_run s f sh
       = until_panic (map (fun c => piece_outcome f sh (piece_at s0 c)) (cuts_from off s sh) ++ tail).
Proof.
  intros f sh s0 s. induction s as [s IH] using (cut_ind sh). intros off Hs.
  rewrite (cuts_from_step off s). pose proof (spec_run_next s f sh) as Hr.
  destruct (cut_next sh s) as [n|] eqn:En.
  - destruct (IH n eq_refl (off + n)) as (tail & Ht & E).
    { rewrite <- Hs. symmetry. apply dropN_dropN. }
    exists tail. split; [exact Ht|]. cbn [map app]. unfold piece_at at 1. cbn [fst snd].
    rewrite <- dropN_skipn, <- takeN_firstn, Hs, Hr.
    destruct (piece_outcome f sh (takeN n s)); cbn [piece_then until_panic];
      [f_equal; exact E..|reflexivity].
  - exists (spec_run s f sh). split; [exact Hr|]. destruct Hr as [-> | ->]; reflexivity.
Qed.

Lemma cuts_from_layout : forall sh s off,
  let cuts := cuts_from off s sh in
  Forall (fun c => hdr_len sh <= snd c /\ fst c + snd c <= off + len s) cuts
  /\ (forall i c d, nth_error cuts i = Some c -> nth_error cuts (S i) = Some d -> fst d = fst c + snd c)
  /\ (forall c, nth_error cuts 0 = Some c -> fst c = off).
Proof.
  intros sh s. induction s as [s IH] using (cut_ind sh). intros off. cbv zeta. rewrite cuts_from_step.
  destruct (cut_next sh s) as [n|] eqn:En.
  - apply cut_next_spec in En. destruct (IH n eq_refl (off + n)) as (I1 & I2 & I3).
    split; [|split].
    + constructor; [cbn [fst snd]; unfold hdr_len; lia|].
      eapply Forall_impl; [|exact I1]. cbn beta. intros c. rewrite len_dropN. lia.
    + intros [|i] c d Hc Hd; cbn [nth_error] in Hc, Hd.
      * injection Hc as <-. cbn [fst snd]. apply I3. exact Hd.
      * exact (I2 i c d Hc Hd).
    + intros c Hc. cbn [nth_error] in Hc. injection Hc as <-. reflexivity.
  - split; [constructor|]. split; [intros [|i] c d H; discriminate|intros c H; discriminate].
Qed.
